(* Status: since 7f2c2d0 snapshots are collected and appended under statusLock.  Mutual exclusion of the three snapshot threads,
   and its consequence: the lines of the history file form ONE chain of scheduler states, in file order (check 4 of
   Status/Check.v applies to all lines, whoever wrote them). *)
From Coq Require Import List Arith Bool PeanoNat Lia.
Import ListNotations.
From BD.Status Require Import Model Check Steps Proofs.

(* the three disjuncts of `locked` (Model.v), by thread: `locked_eq` *)
Definition crit_fs (st : astate) : bool := match fs st with FLocked | FOv _ | FComputed _ => true | _ => false end.
Definition crit_cp (st : astate) : bool := match cp st with CLocked | COv _ | CComputed _ => true | _ => false end.
Definition crit_mp (st : astate) : bool := match mp st with MFinalLocked | MFinalComputed _ => true | _ => false end.

Lemma locked_eq : forall st, locked st = crit_fs st || crit_cp st || crit_mp st.
Proof. reflexivity. Qed.

Definition Mutex (st : astate) : Prop :=
  crit_fs st && crit_cp st = false /\ crit_fs st && crit_mp st = false /\ crit_cp st && crit_mp st = false.

Lemma Mutex_step : forall st l st', Mutex st -> astep st l = Some st' -> Mutex st'.
Proof.
  intros st l st' (M1 & M2 & M3) H.
  astep_cases H; unfold Mutex, crit_fs, crit_cp, crit_mp, locked in *; simpl in *;
    repeat match goal with
           | H : mp _ = _ |- _ => rewrite H in *
           | H : fs _ = _ |- _ => rewrite H in *
           | H : cp _ = _ |- _ => rewrite H in *
           end; simpl in *;
    repeat match goal with
           | H : _ && _ = true |- _ => apply andb_true_iff in H; destruct H
           | H : negb _ = true |- _ => apply negb_true_iff in H
           | H : _ || _ = false |- _ => apply orb_false_iff in H; destruct H
           end;
    repeat split; auto; try congruence; rewrite ?andb_true_r, ?andb_false_r; auto.
Qed.

Lemma Mutex_init : forall n s0, Mutex (init n s0).
Proof. intros. repeat split. Qed.

(* snapshots whose table has been copied and that are waiting to be appended: the part of `inflight` (Proofs.v) held by
   threads inside writeStatus *)
Definition computed (st : astate) : list snap :=
  (match fs st with FComputed s => [s] | _ => [] end) ++ (match cp st with CComputed s => [s] | _ => [] end) ++
  (match mp st with MFinalComputed s => [s] | _ => [] end).

Lemma computed_nil : forall st, computed st = [] <->
  (forall s, fs st <> FComputed s) /\ (forall s, cp st <> CComputed s) /\ (forall s, mp st <> MFinalComputed s).
Proof.
  intros st. unfold computed. split.
  - intros H. apply app_eq_nil in H. destruct H as [Hf H]. apply app_eq_nil in H. destruct H as [Hc Hm].
    repeat split; intros s E; rewrite E in *; discriminate.
  - intros (A & B & C).
    destruct (fs st); try (exfalso; eapply A; reflexivity);
      destruct (cp st); try (exfalso; eapply B; reflexivity);
      destruct (mp st); try (exfalso; eapply C; reflexivity); reflexivity.
Qed.

Lemma file_step : forall st l st', Phase st -> Mutex st -> astep st l = Some st' ->
  file st' = file st \/ file st' = [] \/
  exists s, file st' = file st ++ [s] /\ computed st' = [] /\ (s = snap_of (sc st) \/ In s (computed st)).
Proof.
  intros st l st' P (M1 & M2 & M3) H.
  astep_cases H; unfold append, finished in *; simpl in *; auto;
    repeat match goal with
           | |- context [if ?b then _ else _] => destruct b eqn:?
           end; simpl; auto;
    right; right; eexists; (split; [reflexivity|]); unfold computed, crit_fs, crit_cp, crit_mp in *; simpl;
    repeat match goal with
           | H : mp _ = _ |- _ => rewrite H in *
           | H : fs _ = _ |- _ => rewrite H in *
           | H : cp _ = _ |- _ => rewrite H in *
           end; simpl in *.
  - (* LWriteS0: the goroutines do not exist yet *)
    unfold Phase in P. match goal with Hm : mp st = MOpened |- _ => rewrite Hm in P end.
    destruct P as (_ & (-> & ->) & _). auto.
  (* LFsAppend, LCAppend, LFinalAppend: the appending thread is inside writeStatus, so by mutual exclusion neither of
     the other two holds a computed snapshot *)
  - destruct (cp st); simpl in *; try discriminate; destruct (mp st); simpl in *; try discriminate; auto.
  - destruct (fs st); simpl in *; try discriminate; destruct (mp st); simpl in *; try discriminate; auto.
  - destruct (fs st); simpl in *; try discriminate; destruct (cp st); simpl in *; try discriminate; auto.
Qed.

Lemma computed_step : forall st l st' s, astep st l = Some st' -> In s (computed st') ->
  In s (computed st) \/ s_tbl s = tbl (sc st).
Proof.
  intros st l st' s H Hin. unfold computed in *. rewrite !in_app_iff in *.
  astep_cases H; simpl in *;
    repeat match goal with
           | H : mp _ = _ |- _ => rewrite H in *
           | H : fs _ = _ |- _ => rewrite H in *
           | H : cp _ = _ |- _ => rewrite H in *
           end; simpl in *;
    repeat match goal with
           | H : _ \/ _ |- _ => destruct H
           | H : False |- _ => destruct H
           end; subst; simpl; auto 10.
Qed.

Lemma chainb_snoc : forall l t, chainb l = true -> (forall x, In x l -> tbl_reachb x t = true) -> chainb (l ++ [t]) = true.
Proof.
  induction l as [|a l IH]; intros t Hc Hr; simpl; auto.
  destruct l as [|b l']; simpl in *.
  - assert (E : tbl_reachb a t = true) by (apply Hr; left; reflexivity). rewrite E. reflexivity.
  - apply andb_true_iff in Hc. destruct Hc as [Hab Hc]. rewrite Hab. simpl. apply IH; auto.
Qed.

(* the lines of the history file, in file order, are one chain of scheduler states; every computed snapshot waiting for its
   append is reachable from every line *)
Definition Chain (st : astate) : Prop :=
  chainb (map s_tbl (file st)) = true /\
  (forall s x, In s (computed st) -> In x (file st) -> tbl_reachb (s_tbl x) (s_tbl s) = true).

Lemma Chain_step : forall st l st', Phase st -> Hist st -> Mutex st -> Chain st -> astep st l = Some st' -> Chain st'.
Proof.
  intros st l st' P (_ & HS & _) M [C1 C2] H.
  assert (R : forall x, In x (file st) -> tbl_reachb (s_tbl x) (tbl (sc st)) = true).
  { intros x Hx. destruct (HS x) as (s1 & _ & _ & _ & R); [apply in_or_app; auto | exact R]. }
  destruct (file_step _ _ _ P M H) as [E|[E|[s [E [Ec Hs]]]]]; unfold Chain; rewrite E.
  - split; auto. intros s x Hs Hx.
    destruct (computed_step _ _ _ _ H Hs) as [Ho|Ht]; auto. rewrite Ht. auto.
  - split; simpl; auto; intros s x _ [].
  - split.
    + rewrite map_app. simpl. apply chainb_snoc; auto.
      intros t Ht. apply in_map_iff in Ht. destruct Ht as [x [<- Hx]].
      destruct Hs as [Hs|Hs]; [subst s; simpl; auto | apply C2; auto].
    + rewrite Ec. intros s1 x [].
Qed.

Lemma chain_inv : forall n s0 ls st, exec (init n s0) ls = Some st -> Mutex st /\ Chain st.
Proof.
  intros n s0 ls st He.
  apply (exec_inv (fun st => (Phase st /\ Hist st) /\ Mutex st /\ Chain st)) in He; [tauto | |].
  - intros st1 l st2 ((P & Hi) & M & C) H. split; [split | split].
    + eapply Phase_step; eauto.
    + eapply Hist_step; eauto.
    + eapply Mutex_step; eauto.
    + eapply Chain_step; eauto.
  - split; [split; [apply Phase_init | apply Hist_init] | split; [apply Mutex_init | split; [reflexivity | intros s x []]]].
Qed.

Theorem file_is_a_chain : forall n s0 ls st,
  exec (init n s0) ls = Some st -> chainb (map s_tbl (file st)) = true.
Proof. intros n s0 ls st He. apply (chain_inv _ _ _ _ He). Qed.
