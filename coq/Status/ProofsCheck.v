(* Status: the acceptance conditions of Status/Check.v are necessary for executions of the model - a case the
   check rejects is not a behaviour of the model (so a rejection is a genuine difference between model and code):
   every state the abstract scheduler passes through is reachable, node by node, from every earlier one (`tbl_reachb` of
   Status/Check.v; Steps.v), hence every snapshot that exists anywhere reaches the current state - at the end, the final one (checks 5, 8) -,
   carries the overall status of an earlier state (check 1), and the final status stays the last line (check 9).  That the
   lines form one chain (check 4) is ProofsChain.v. *)
From Coq Require Import List Arith Bool PeanoNat Lia.
Import ListNotations.
From BD.Status Require Import Model Check Steps Proofs.

Lemma nst_eqb_refl : forall a, nst_eqb a a = true.
Proof. destruct a; reflexivity. Qed.
Lemma nst_eqb_eq : forall a b, nst_eqb a b = true -> a = b.
Proof. destruct a, b; simpl; congruence. Qed.

Theorem snapshots_reach_current : forall n s0 ls st,
  exec (init n s0) ls = Some st -> forall x, In x (snaps st) -> tbl_reachb (s_tbl x) (tbl (sc st)) = true.
Proof.
  intros n s0 ls st He x Hx. destruct (reachable_inv _ _ _ _ He) as (_ & _ & HS & _).
  destruct (HS x Hx) as (s1 & _ & _ & _ & R). exact R.
Qed.

Theorem exec_reach : forall ls st st', exec st ls = Some st' -> tbl_reachb (tbl (sc st)) (tbl (sc st')) = true.
Proof.
  intros ls st st'. apply (exec_inv (fun st' => tbl_reachb (tbl (sc st)) (tbl (sc st')) = true)).
  - intros st1 l st2 R H. eapply tbl_reachb_trans; [exact R | eapply astep_reach; eauto].
  - apply tbl_reachb_refl.
Qed.

(* Agent.Status reads the overall status before it copies the table: s1 is the scheduler state at that moment; check 1 of
   Status/Check.v searches exactly these *)
Theorem snapshot_overall : forall n s0 ls st,
  exec (init n s0) ls = Some st ->
  forall x, In x (snaps st) -> exists s1, s_ov x = ov_of s1 /\ tbl_reachb (tbl s1) (s_tbl x) = true.
Proof.
  intros n s0 ls st He x Hx. destruct (reachable_inv _ _ _ _ He) as (_ & _ & HS & _).
  destruct (HS x Hx) as (s1 & _ & Ho & R & _). exists s1. auto.
Qed.

(* check 9: once the final status has been written it is, and stays, the last line of the history file - up to phase 11
   (MCompactRenamed), the last one before the compaction unlinks the file *)
Theorem final_line_is_last : forall n s0 ls st,
  exec (init n s0) ls = Some st -> 5 <= mrank (mp st) <= 11 -> last_line (file st) = Some (snap_of (sc st)).
Proof.
  intros n s0 ls st He Hr. destruct (reachable_inv _ _ _ _ He) as [P _]. unfold Phase in P.
  destruct (mp st); simpl in Hr; try lia; tauto.
Qed.
