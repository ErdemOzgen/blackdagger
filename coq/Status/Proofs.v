(* Status: the theorems of C08 about Status/Model.v (live_in_progress, crash, daemon, restartable, final), for all table
   sizes, socket pre-states and label sequences (= every interleaving of the agent's threads with the abstract step
   scheduler) and all their prefixes (= a SIGKILL anywhere).  They rest on two invariants of `astep`: `Hist` (every
   snapshot that exists anywhere shows a state the scheduler has passed through) and `Phase` (what each phase of the
   main thread guarantees about socket, lock, goroutines and files); `Inv1` is a weaker reading of `Hist`. *)
From Coq Require Import List Arith Bool PeanoNat Lia.
Import ListNotations.
From BD.Status Require Import Model Check Steps.

Lemma last_line_in : forall l s, last_line l = Some s -> In s l.
Proof.
  unfold last_line; intros l s H. destruct (rev l) eqn:E; [discriminate|].
  inversion H; subst. apply in_rev. rewrite E. left; reflexivity.
Qed.

Lemma last_line_app : forall l s, last_line (l ++ [s]) = Some s.
Proof. intros. unfold last_line. rewrite rev_app_distr. reflexivity. Qed.

Lemma last_line_nil_iff : forall l, last_line l = None <-> l = [].
Proof.
  intros l; unfold last_line; split; intro H.
  - destruct (rev l) eqn:E; [|discriminate]. apply (f_equal (@rev snap)) in E. rewrite rev_involutive in E. exact E.
  - subst; reflexivity.
Qed.

Lemma recv_ov : forall s s', recv s = Some s' -> ov_of s' = ov_of s.
Proof. intros s s' H. pose proof (recv_snap _ _ H) as E. unfold snap_of in E. congruence. Qed.

(* every snapshot that exists anywhere: in the file, in the twin or its tmp, or computed and not yet written *)
Definition inflight (st : astate) : list snap :=
  (match fs st with FComputed s => [s] | _ => [] end) ++
  (match cp st with CComputed s => [s] | _ => [] end) ++
  (match mp st with MFinalComputed s | MCompactRead s | MCompactCreated s => [s] | _ => [] end).
Definition snaps (st : astate) : list snap :=
  file st ++ (match cfile st with Some l => l | None => [] end) ++ (match tmp st with Some l => l | None => [] end) ++ inflight st.

Lemma in_append : forall st s x, In x (append st s) -> In x (file st) \/ x = s.
Proof.
  unfold append; intros st s x H. destruct (wclosed st); auto. destruct (orig st); auto.
  apply in_app_iff in H. destruct H as [H|[H|[]]]; auto.
Qed.

(* overall statuses read and not yet paired with a table *)
Definition ovs (st : astate) : list ostatus :=
  (match fs st with FOv o => [o] | _ => [] end) ++ (match cp st with COv o => [o] | _ => [] end).

Lemma new_snap : forall st l st' x,
  astep st l = Some st' -> In x (snaps st') ->
  In x (snaps st) \/ x = snap_of (sc st) \/ (exists o, In o (ovs st) /\ x = mkSnap o (tbl (sc st))).
Proof.
  intros st l st' x H Hin. unfold snaps, inflight, ovs in *.
  (* membership in the concatenations is spelt out once, before the labels are told apart *)
  rewrite !in_app_iff in *.
  astep_cases H; simpl in *;
    repeat match goal with
           | H : mp _ = _ |- _ => rewrite H in *
           | H : fs _ = _ |- _ => rewrite H in *
           | H : cp _ = _ |- _ => rewrite H in *
           end; simpl in *;
    try (match goal with H : last_line _ = Some _ |- _ => apply last_line_in in H end);
    repeat match goal with
           | H : _ \/ _ |- _ => destruct H
           | H : In _ (append _ _) |- _ => apply in_append in H
           | H : False |- _ => destruct H
           end; subst; auto 10.
  all: right; right; eexists; split; [|reflexivity]; try apply in_or_app; simpl; auto.
Qed.

Lemma new_ov : forall st l st' o,
  astep st l = Some st' -> In o (ovs st') -> In o (ovs st) \/ o = ov_of (sc st).
Proof.
  intros st l st' o H Hin. unfold ovs in *. rewrite !in_app_iff in *.
  astep_cases H; simpl in *;
    repeat match goal with
           | H : fs _ = _ |- _ => rewrite H in *
           | H : cp _ = _ |- _ => rewrite H in *
           end; simpl in *;
    repeat match goal with
           | H : _ \/ _ |- _ => destruct H
           | H : False |- _ => destruct H
           end; subst; auto 10.
Qed.

(* The order "finished and skipped nodes never change", a weaker consequence of the reach order (`reach_le`), and the
   invariant `Inv1` that every snapshot is below the current table in it.  The theorems of this file use `Hist`, which says more. *)
Definition node_le (a b : node) : Prop := is_succ (nst a) = true -> b = a.
Definition tbl_le (t t' : table) : Prop := Forall2 node_le t t'.

Lemma tbl_le_refl : forall t, tbl_le t t.
Proof. induction t; constructor; auto. intro; reflexivity. Qed.

Lemma tbl_le_trans : forall a b c, tbl_le a b -> tbl_le b c -> tbl_le a c.
Proof.
  intros a b c H; revert c; induction H as [|x y l l' Hxy Hl IH]; intros c Hc; inversion Hc; subst.
  - constructor.
  - constructor.
    + intro Hs. pose proof (Hxy Hs) as E. subst y. match goal with K : node_le x _ |- _ => exact (K Hs) end.
    + apply IH; assumption.
Qed.

Lemma reach_le : forall t t', tbl_reachb t t' = true -> tbl_le t t'.
Proof.
  induction t as [|a t IH]; intros [|b t'] H; simpl in H; try discriminate; [constructor|].
  apply andb_true_iff in H. destruct H as [Hn Ht]. constructor; [|exact (IH _ Ht)].
  intro Hs. apply node_reachb_spec in Hn. destruct (nst a); try discriminate; exact Hn.
Qed.

Lemma astep_le : forall st l st', astep st l = Some st' -> tbl_le (tbl (sc st)) (tbl (sc st')).
Proof. intros st l st' H. apply reach_le. eapply astep_reach; eauto. Qed.

Definition Inv1 (st : astate) : Prop := forall x, In x (snaps st) -> tbl_le (s_tbl x) (tbl (sc st)).

Lemma Inv1_step : forall st l st', Inv1 st -> astep st l = Some st' -> Inv1 st'.
Proof.
  intros st l st' I H x Hx. pose proof (astep_le _ _ _ H) as Hle.
  destruct (new_snap _ _ _ _ H Hx) as [Hold|[Hnew|[o [_ Hnew]]]].
  - eapply tbl_le_trans; [apply I; exact Hold | exact Hle].
  - subst. exact Hle.
  - subst. exact Hle.
Qed.

Lemma Inv1_exec : forall ls st st', Inv1 st -> exec st ls = Some st' -> Inv1 st'.
Proof. exact (exec_inv Inv1 Inv1_step). Qed.

(* (o, t) pairs the overall status of a state s1 the scheduler has passed through (hence with consistent flags) with a
   table between that of s1 and the current one: Agent.Status reads the overall status first and copies the table later *)
Definition past (st : astate) (o : ostatus) (t : table) : Prop :=
  exists s1, flags_ok s1 /\ o = ov_of s1 /\ tbl_reachb (tbl s1) t = true /\ tbl_reachb t (tbl (sc st)) = true.

Definition Hist (st : astate) : Prop :=
  flags_ok (sc st) /\
  (forall x, In x (snaps st) -> past st (s_ov x) (s_tbl x)) /\
  (forall o, In o (ovs st) -> past st o (tbl (sc st))).

Lemma past_now : forall st, flags_ok (sc st) -> past st (ov_of (sc st)) (tbl (sc st)).
Proof. intros st F. exists (sc st). auto using tbl_reachb_refl. Qed.

Lemma Hist_step : forall st l st', Hist st -> astep st l = Some st' -> Hist st'.
Proof.
  intros st l st' (F & IS & IO) H. pose proof (astep_reach _ _ _ H) as Hle.
  (* what was past stays past; a pair whose table is the current one can be moved on to the next state *)
  assert (Hkeep : forall o t, past st o t -> past st' o t).
  { intros o t (s1 & F1 & Ho & R1 & R2). exists s1. eauto using tbl_reachb_trans. }
  assert (Hmove : forall o, past st o (tbl (sc st)) -> past st' o (tbl (sc st'))).
  { intros o (s1 & F1 & Ho & R1 & _). exists s1. eauto using tbl_reachb_trans, tbl_reachb_refl. }
  split; [eapply flags_ok_astep; eauto | split].
  - intros x Hx. destruct (new_snap _ _ _ _ H Hx) as [Hold|[Hnew|[o [Ho Hnew]]]]; subst; apply Hkeep; auto.
    apply past_now, F.
  - intros o Ho. apply Hmove. destruct (new_ov _ _ _ _ H Ho) as [Hold|Hnew]; subst; auto using past_now.
Qed.

Lemma Hist_init : forall n s0, Hist (init n s0).
Proof. intros n s0. split; [apply flags_ok_init | split; intros x H; destruct H]. Qed.

Lemma correct_not_running : forall s, s_ov (correct s) <> ORunning.
Proof. intros s. unfold correct. destruct (s_ov s) eqn:E; simpl; congruence. Qed.

Lemma correct_success : forall s, s_ov (correct s) = OSuccess -> s_ov s = OSuccess /\ correct s = s.
Proof. intros s. unfold correct. destruct (s_ov s) eqn:E; simpl; try congruence; auto. Qed.

Lemma alive_after_kill : forall st, alive (after_kill st) = false.
Proof. intros st. unfold alive, after_kill; simpl. destruct (sock st); reflexivity. Qed.

Lemma persisted_after_kill : forall st, persisted (after_kill st) = persisted st.
Proof. reflexivity. Qed.

Lemma persisted_in_snaps : forall st s, persisted st = PSnap s -> In s (snaps st).
Proof.
  unfold persisted, snaps; intros st s H.
  destruct (cfile st) as [l|].
  - destruct (last_line l) eqn:E2; inversion H; subst. apply last_line_in in E2.
    apply in_app_iff; right. apply in_app_iff; auto.
  - destruct (if orig st then last_line (file st) else None) as [x|] eqn:E; inversion H; subst.
    destruct (orig st); [|discriminate]. apply last_line_in in E. apply in_app_iff; auto.
Qed.

(* since 3aa388e the history never makes GetLatestStatus fail *)
Lemma persisted_no_err : forall st, persisted st <> PErr.
Proof.
  intros st. unfold persisted. destruct (cfile st) as [l|].
  - destruct (last_line l); discriminate.
  - destruct (if orig st then last_line (file st) else None); discriminate.
Qed.

Definition in_progress (st : astate) : bool :=
  match sph (sc st) with SLoop | SHandlers => true | _ => false end.

Definition idle (st : astate) : Prop := fs st = FSleep /\ cp st = CIdle.
Definition writable (st : astate) : Prop := orig st = true /\ wclosed st = false.
Definition up (st : astate) : Prop := sock st = SockLive /\ dlock st = false.
Definition down (st : astate) : Prop := sph (sc st) = SReturned /\ sock st <> SockLive /\ dlock st = false.

(* What holds in each phase (c is the current scheduler state as a snapshot): the goroutines do not exist before the socket
   is bound; the socket is bound, and the start lock released, from LBind to LUnbind; the main thread's final snapshot is
   taken after Schedule has returned, when the scheduler is frozen, and stays the last line (since 7f2c2d0 nothing is
   appended after it); the compaction carries it into the twin. *)
Definition Phase (st : astate) : Prop :=
  let c := snap_of (sc st) in
  match mp st with
  | MInit => sph (sc st) = SInit /\ idle st
  | MOpened | MS0 => sph (sc st) = SInit /\ idle st /\ writable st
  | MBound => up st /\ writable st
  | MFinalLocked => sph (sc st) = SReturned /\ up st /\ writable st
  | MFinalComputed s => sph (sc st) = SReturned /\ up st /\ writable st /\ s = c
  | MFinalWritten | MFinished => sph (sc st) = SReturned /\ up st /\ last_line (file st) = Some c
  | MUnbound => down st /\ last_line (file st) = Some c
  | MCompactRead s | MCompactCreated s => down st /\ last_line (file st) = Some c /\ s = c
  | MCompactWritten => down st /\ last_line (file st) = Some c /\ tmp st = Some [c]
  | MCompactRenamed => down st /\ last_line (file st) = Some c /\ cfile st = Some [c]
  | MCompactDone | MClosed => down st /\ cfile st = Some [c]
  end.

Lemma append_last : forall st s, orig st = true -> wclosed st = false -> last_line (append st s) = Some s.
Proof. intros st s Ho Hw. unfold append. rewrite Ho, Hw. apply last_line_app. Qed.

Lemma Phase_init : forall n s0, Phase (init n s0).
Proof. intros. repeat split. Qed.

Lemma Phase_step : forall st l st', Phase st -> astep st l = Some st' -> Phase st'.
Proof.
  intros st l st' I H.
  astep_cases H; unfold Phase, idle, writable, up, down, finished in *; simpl in *.
  (* a receive on `done` changes neither the scheduler's phase nor its snapshot *)
  all: try match goal with H : recv _ = Some _ |- _ =>
             rewrite (recv_snap _ _ H); apply recv_tbl in H; destruct H as (_ & _ & _ & ->) end.
  (* a step of the main thread fixes its phase; for the other threads every phase is gone through *)
  all: try match goal with H : mp _ = _ |- _ => rewrite H in * end.
  all: try match goal with |- context [mp ?s] => destruct (mp s); simpl in *; try discriminate end.
  all: try solve [intuition congruence].
  (* LFinalAppend: the file is writable, so the final snapshot becomes its last line *)
  destruct I as (R & U & (Ho & Hw) & ->). rewrite (append_last _ _ Ho Hw). auto.
Qed.

Lemma reachable_inv : forall n s0 ls st, exec (init n s0) ls = Some st -> Phase st /\ Hist st.
Proof.
  intros n s0 ls st. apply (exec_inv (fun st => Phase st /\ Hist st)).
  - intros st1 l st2 [P Hi] H. split; [eapply Phase_step | eapply Hist_step]; eauto.
  - split; [apply Phase_init | apply Hist_init].
Qed.

(* C08_crash.  The second half holds since fix b9e9fa2 (before it: finding F8a). *)
Theorem crash : forall n s0 ls st,
  exec (init n s0) ls = Some st ->
  s_ov (fst (report n (after_kill st))) <> ORunning /\
  (s_ov (fst (report n (after_kill st))) = OSuccess -> all_succeed (tbl (sc st)) = true).
Proof.
  intros n s0 ls st He. unfold report, reported. rewrite alive_after_kill, persisted_after_kill.
  destruct (persisted st) as [| |s] eqn:Hp; simpl; try (split; intro; discriminate).
  split; [apply correct_not_running|]. intros Hr. apply correct_success in Hr. destruct Hr as [Hr _].
  (* the persisted snapshot shows a past state s1 whose Scheduler.Status was `finished`: every step had ended well in
     s1, hence in the snapshot's table, hence now *)
  destruct (reachable_inv _ _ _ _ He) as (_ & _ & HS & _).
  destruct (HS s (persisted_in_snaps _ _ Hp)) as (s1 & F1 & Ho & R1 & R2).
  eapply reach_all_succeed; [exact R2|]. eapply reach_all_succeed; [exact R1|]. apply ov_success; [exact F1 | congruence].
Qed.

(* the witness of finding F8a (chain of two steps, kill after the snapshot that follows the first): before fix b9e9fa2 the
   history said `finished` although the second step never started; now the snapshot says `running`, shown as failed *)
Definition f8a_trace : list alabel :=
  [LLockDag; LOpen; LWriteS0; LBind; LSched AStart; LSched (ALaunch 0); LSched (AEnd 0 true); LSched ADoneSend;
   LNotify; LCLock; LCOv; LCTbl; LCAppend].

Example f8a_trace_now_failed : exists st,
  exec (init 2 SockAbsent) f8a_trace = Some st /\ s_ov (fst (report 2 (after_kill st))) = OError /\
  map nst (s_tbl (fst (report 2 (after_kill st)))) = [NSuccess; NNone].
Proof. eexists. split; [vm_compute; reflexivity|]. vm_compute. auto. Qed.

(* a torn snapshot (overall status read between two steps, table copied after the next step was launched): before b9e9fa2
   `finished` with a running step; now `running`, shown as failed *)
Example torn_snapshot_now_failed : exists st,
  exec (init 2 SockAbsent)
    [LLockDag; LOpen; LWriteS0; LBind; LSched AStart; LSched (ALaunch 0); LSched (AEnd 0 true); LSched ADoneSend;
     LNotify; LCLock; LCOv; LSched (ALaunch 1); LCTbl; LCAppend] = Some st /\
  s_ov (fst (report 2 (after_kill st))) = OError /\
  map nst (s_tbl (fst (report 2 (after_kill st)))) = [NSuccess; NRunning].
Proof. eexists. split; [vm_compute; reflexivity|]. vm_compute. auto. Qed.

Example crash_nonvacuous :
  exists ls st, exec (init 2 SockAbsent) ls = Some st /\
                s_ov (fst (report 2 (after_kill st))) = OSuccess /\ all_succeed (tbl (sc st)) = true.
Proof.
  exists [LLockDag; LOpen; LWriteS0; LBind; LSched AStart; LSched (ALaunch 0); LSched (ALaunch 1); LSched (AEnd 0 true);
          LSched (AEnd 1 true); LSched ADoneSend; LNotify; LCLock; LCOv; LCTbl; LCAppend].
  eexists. split; [vm_compute; reflexivity|]. vm_compute. auto.
Qed.

(* C08_live: in progress = Schedule has started and not returned *)
Theorem live_in_progress : forall n s0 ls st,
  exec (init n s0) ls = Some st ->
  in_progress st = true ->
  alive st = true /\ report n st = (mkSnap ORunning (tbl (sc st)), false).
Proof.
  intros n s0 ls st He Hp. destruct (reachable_inv _ _ _ _ He) as [P _].
  (* in progress excludes the phases before the bind (Schedule not started) and after it (Schedule returned) *)
  assert (Hs : sock st = SockLive).
  { unfold in_progress in Hp. unfold Phase, up, down in P.
    destruct (mp st); try (destruct P as ((Hs & _) & _); exact Hs);
      decompose [and] P; match goal with K : sph _ = _ |- _ => rewrite K in Hp; discriminate end. }
  unfold report, reported, alive. rewrite Hs. split; reflexivity.
Qed.

Example live_nonvacuous : exists st,
  exec (init 2 SockStale) [LLockDag; LOpen; LWriteS0; LBind; LSched AStart; LSched (ALaunch 0); LSched (AEnd 0 true)] = Some st /\
  in_progress st = true /\ map nst (s_tbl (fst (report 2 st))) = [NSuccess; NNone] /\ s_ov (fst (report 2 st)) = ORunning.
Proof. eexists. split; [vm_compute; reflexivity|]. vm_compute. auto. Qed.

(* C08_final: after a complete run (the writer has been closed) the persisted status is the final state of the run, and
   that is what is reported.  Since fix 7f2c2d0; before it false when a snapshot computed earlier was appended after the
   final status (findings F8b/F8c). *)
Theorem final : forall n s0 ls st,
  exec (init n s0) ls = Some st ->
  mp st = MClosed ->
  persisted st = PSnap (snap_of (sc st)) /\
  report n st = (correct (snap_of (sc st)), false).
Proof.
  intros n s0 ls st He Hm.
  destruct (reachable_inv _ _ _ _ He) as [P _]. unfold Phase in P. rewrite Hm in P. destruct P as ((_ & Hs & _) & Hc).
  assert (Hp : persisted st = PSnap (snap_of (sc st))) by (unfold persisted; rewrite Hc; reflexivity).
  split; [exact Hp|]. unfold report, reported, alive. rewrite Hp. destruct (sock st); congruence.
Qed.

(* the witness of F8b: before fix 7f2c2d0 the "first status" goroutine computed its snapshot (`running`) while the second
   step ran, and appended it after the final status.  Now it holds statusLock from before its Status() until after its
   Write: the main thread cannot take its final snapshot in between ... *)
Definition f8b_prefix : list alabel :=
  [LLockDag; LOpen; LWriteS0; LBind; LSched AStart; LSched (ALaunch 0); LSched (AEnd 0 true); LSched ADoneSend; LNotify; LCLock; LCOv; LCTbl; LCAppend;
   LSched (ALaunch 1); LFsWake; LFsOv; LFsTbl;
   LSched (AEnd 1 true); LSched ADoneSend; LNotify; LSched AWait; LSched AReturn].

Example f8b_main_must_wait :
  (exists st, exec (init 2 SockAbsent) f8b_prefix = Some st /\ locked st = true) /\
  exec (init 2 SockAbsent) (f8b_prefix ++ [LFinalLock]) = None /\
  exec (init 2 SockAbsent) (f8b_prefix ++ [LCLock]) = None.
Proof. split; [eexists; split; vm_compute; reflexivity|]. split; vm_compute; reflexivity. Qed.

(* ... and the run ends with its final state persisted and reported *)
Example f8b_trace_now_final : exists st,
  exec (init 2 SockAbsent)
    (f8b_prefix ++ [LFsAppend; LCLock; LCOv; LCTbl; LCAppend; LFinalLock; LFinalCompute; LFinalAppend; LFinish; LUnbind;
                    LCompactRead; LCompactCreate; LCompactWrite; LCompactRename; LCompactUnlink; LCloseWriter]) = Some st /\
  mp st = MClosed /\ persisted st = PSnap (snap_of (sc st)) /\ s_ov (fst (report 2 st)) = OSuccess /\
  map (fun x => s_ov x) (file st) = [ONone; ORunning; ORunning; OSuccess; OSuccess].
Proof. eexists. split; [vm_compute; reflexivity|]. vm_compute. auto. Qed.

Example late_snapshot_not_appended : exists st st',
  exec (init 1 SockAbsent)
    [LLockDag; LOpen; LWriteS0; LBind; LSched AStart; LSched (ALaunch 0); LSched (AEnd 0 true); LSched ADoneSend; LNotify; LSched AWait;
     LSched AReturn; LFinalLock; LFinalCompute; LFinalAppend] = Some st /\
  exec st [LCLock; LCOv; LCTbl; LCAppend; LFsWake; LFsOv; LFsTbl; LFsAppend] = Some st' /\ file st' = file st /\ length (file st) = 2.
Proof. eexists. eexists. split; [vm_compute; reflexivity|]. vm_compute. auto. Qed.

(* C08_daemon: after a kill anywhere the daemon's Start neither takes the DAG for running nor fails on the history.
   Before fix 3aa388e only when the kill did not fall between the creation of the history file and its first line
   (finding F7a). *)
Theorem daemon : forall n s0 ls st,
  exec (init n s0) ls = Some st -> job_guard (report n (after_kill st)) = GMinuteGuard.
Proof.
  intros n s0 ls st _. unfold job_guard, report, reported. rewrite alive_after_kill, persisted_after_kill.
  pose proof (persisted_no_err st) as Hp.
  destruct (persisted st) as [| |s]; simpl; try congruence.
  pose proof (correct_not_running s) as Hn. destruct (s_ov (correct s)); congruence.
Qed.

(* before fix 3aa388e this was the witness of finding F7a (guard = refused with EOF): kill right after the history file was created *)
Example daemon_after_open : exists st,
  exec (init 2 SockAbsent) [LLockDag; LOpen] = Some st /\ mp st = MOpened /\ job_guard (report 2 (after_kill st)) = GMinuteGuard.
Proof. eexists. split; [vm_compute; reflexivity|]. split; vm_compute; reflexivity. Qed.

(* kills inside Close's compaction (since eb925d1: tmp, rename, unlink): a stray tmp is invisible to the reader, a
   published twin is read and the original next to it dropped - always the final state, never an error *)
Definition run1_to_unbind : list alabel :=
  [LLockDag; LOpen; LWriteS0; LBind; LSched AStart; LSched (ALaunch 0); LSched (AEnd 0 true); LSched ADoneSend; LNotify; LCLock; LCOv; LCTbl; LCAppend;
   LSched AWait; LSched AReturn; LFinalLock; LFinalCompute; LFinalAppend; LFinish; LUnbind].

Definition reports_final_after_kill (k : list alabel) : Prop :=
  exists st, exec (init 1 SockAbsent) (run1_to_unbind ++ k) = Some st /\
             report 1 (after_kill st) = (snap_of (sc st), false) /\ s_ov (snap_of (sc st)) = OSuccess.

Example kill_inside_compaction :
  reports_final_after_kill [LCompactRead] /\
  reports_final_after_kill [LCompactRead; LCompactCreate] /\
  reports_final_after_kill [LCompactRead; LCompactCreate; LCompactWrite] /\
  reports_final_after_kill [LCompactRead; LCompactCreate; LCompactWrite; LCompactRename] /\
  reports_final_after_kill [LCompactRead; LCompactCreate; LCompactWrite; LCompactRename; LCompactUnlink].
Proof.
  unfold reports_final_after_kill.
  split; [|split; [|split; [|split]]]; (eexists; split; [vm_compute; reflexivity | split; vm_compute; reflexivity]).
Qed.

Example stray_tmp_states :
  (exists st, exec (init 1 SockAbsent) (run1_to_unbind ++ [LCompactRead; LCompactCreate]) = Some st /\
              tmp st = Some [] /\ cfile st = None /\ orig st = true) /\
  (exists st, exec (init 1 SockAbsent) (run1_to_unbind ++ [LCompactRead; LCompactCreate; LCompactWrite]) = Some st /\
              tmp st = Some [snap_of (sc st)] /\ cfile st = None /\ orig st = true) /\
  (exists st, exec (init 1 SockAbsent) (run1_to_unbind ++ [LCompactRead; LCompactCreate; LCompactWrite; LCompactRename]) = Some st /\
              tmp st = None /\ cfile st = Some [snap_of (sc st)] /\ orig st = true).
Proof.
  split; [|split]; (eexists; split; [vm_compute; reflexivity | split; [|split]; vm_compute; reflexivity]).
Qed.

(* C08_restartable: the kernel releases the flock at process death; the bind is preceded by the unlink of sock/server.go,
   so it succeeds whatever the kill left at the socket path *)
Theorem restartable : forall n s0 ls st,
  exec (init n s0) ls = Some st ->
  dlock (after_kill st) = false /\
  probe_running (sock (after_kill st)) = false /\ bind_ok true (sock (after_kill st)) = true.
Proof. intros. unfold after_kill; simpl. destruct (sock st); auto. Qed.

(* the flock is held from before the already-running check until the socket listens: a live run does not keep later
   starts waiting - they get to the probe and are refused there *)
Theorem flock_only_during_startup : forall n s0 ls st,
  exec (init n s0) ls = Some st -> dlock st = true -> mrank (mp st) <= 2.
Proof.
  intros n s0 ls st He Hd. destruct (reachable_inv _ _ _ _ He) as [P _]. unfold Phase, up, down in P.
  destruct (mp st); simpl; try lia; decompose [and] P; congruence.
Qed.

Example kill_holding_flock : exists st,
  exec (init 2 SockStale) [LLockDag; LOpen; LWriteS0] = Some st /\ dlock st = true /\ dlock (after_kill st) = false.
Proof. eexists. repeat split; vm_compute; reflexivity. Qed.
