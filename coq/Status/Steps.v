(* Status: what one step does, shared by Proofs.v, ProofsCheck.v and ProofsChain.v: every step moves the node table
   forward in the order `tbl_reachb` of Status/Check.v and keeps the scheduler's flags consistent with it; an agent
   step leaves the scheduler alone, or is one scheduler step, or one receive on `done`. *)
From Coq Require Import List Arith Bool PeanoNat Lia.
Import ListNotations.
From BD.Status Require Import Model Check.

Arguments snap_of : simpl never.
Arguments ov_of : simpl never.

Lemma exec_inv (P : astate -> Prop) :
  (forall st l st', P st -> astep st l = Some st' -> P st') ->
  forall ls st st', P st -> exec st ls = Some st' -> P st'.
Proof.
  intros Hstep ls; induction ls as [|l r IH]; intros st st' I He; simpl in He.
  - inversion He; subst; exact I.
  - destruct (astep st l) as [st1|] eqn:Hs; [|discriminate]. eapply IH; [|exact He]. eapply Hstep; eauto.
Qed.

Lemma node_reachb_refl : forall a, node_reachb a a = true.
Proof.
  intros [s r]; unfold node_reachb; simpl. destruct s; simpl; rewrite ?Nat.leb_refl, ?Nat.eqb_refl; auto.
Qed.

Lemma node_reachb_spec : forall a b, node_reachb a b = true <->
  match nst a with NNone | NRunning | NCancel => nrc a <= nrc b | _ => b = a end.
Proof.
  intros [sa ra] [sb rb]; unfold node_reachb; simpl.
  destruct sa; rewrite ?Nat.leb_le; try tauto; destruct sb; simpl; rewrite ?Nat.eqb_eq;
    (split; intros H; [try discriminate; subst; reflexivity | inversion H; reflexivity]).
Qed.

Lemma node_reachb_trans : forall a b c, node_reachb a b = true -> node_reachb b c = true -> node_reachb a c = true.
Proof.
  intros a b c. rewrite !node_reachb_spec. destruct (nst a) eqn:Ea; intros H1 H2; subst; try rewrite Ea in H2; auto;
    destruct (nst b); subst; lia.
Qed.

Lemma tbl_reachb_refl : forall t, tbl_reachb t t = true.
Proof. induction t; simpl; auto. rewrite node_reachb_refl, IHt. reflexivity. Qed.

Lemma tbl_reachb_trans : forall a b c, tbl_reachb a b = true -> tbl_reachb b c = true -> tbl_reachb a c = true.
Proof.
  induction a; intros b c H1 H2; destruct b, c; simpl in *; try discriminate; auto.
  apply andb_true_iff in H1. apply andb_true_iff in H2. destruct H1, H2.
  apply andb_true_iff; split; [eapply node_reachb_trans; eauto | eapply IHa; eauto].
Qed.

Lemma upd_reach : forall t i n n', nth_error t i = Some n -> node_reachb n n' = true -> tbl_reachb t (upd t i n') = true.
Proof.
  induction t; intros i n n' Hn Hr; destruct i; simpl in *; try discriminate.
  - inversion Hn; subst. rewrite Hr, tbl_reachb_refl. reflexivity.
  - rewrite node_reachb_refl. simpl. eapply IHt; eauto.
Qed.

Lemma reach_all_succeed : forall t t', tbl_reachb t t' = true -> all_succeed t = true -> all_succeed t' = true.
Proof.
  unfold all_succeed. induction t as [|a t IH]; intros [|b t'] H Ha; simpl in *; try discriminate; auto.
  apply andb_true_iff in H. destruct H as [Hn Ht]. apply andb_true_iff in Ha. destruct Ha as [Hs Ha].
  apply node_reachb_spec in Hn. rewrite (IH _ Ht Ha), andb_true_r.
  destruct (nst a) eqn:Ea; try discriminate; subst b; rewrite Ea; reflexivity.
Qed.

Lemma in_upd : forall (t : table) i n x, In x (upd t i n) -> In x t \/ x = n.
Proof.
  induction t; intros i n x H; destruct i; simpl in *; auto.
  - destruct H; auto.
  - destruct H; auto. apply IHt in H. destruct H; auto.
Qed.

Ltac sstep_cases H :=
  match type of H with sstep ?s ?l = Some _ => destruct l; simpl in H end;
  repeat match type of H with
         | context [match sph ?s with _ => _ end] => destruct (sph s) eqn:?; try discriminate
         | context [match st_at ?t ?i with _ => _ end] => destruct (st_at t i) eqn:?; try discriminate
         | context [if ?x then _ else _] => destruct x eqn:?; try discriminate
         end;
  inversion H; subst; clear H.

Lemma sstep_effect : forall s l s', sstep s l = Some s' ->
  (canc s = true -> canc s' = true) /\ (serr s = true -> serr s' = true) /\
  (tbl s' = tbl s \/
   exists i n n', st_at (tbl s) i = Some n /\ tbl s' = upd (tbl s) i n' /\ node_reachb n n' = true /\
                  (is_bad (nst n') = true -> serr s' || canc s' = true)).
Proof.
  intros s l s' H. sstep_cases H; simpl; (split; [|split]); auto; try (destruct ok; auto); try (left; reflexivity).
  (* the labels that move node i from n, found in the table, to the node the step writes *)
  all: right; match goal with Hn : st_at _ ?i = Some ?n |- _ => exists i, n; eexists; split; [exact Hn|] end.
  all: (split; [reflexivity|]); rewrite node_reachb_spec; simpl.
  all: repeat match goal with
              | H : _ && _ = true |- _ => apply andb_true_iff in H; destruct H
              end.
  (* the guard of the label says which status n has: the retry count does not fall *)
  all: destruct (nst n) eqn:En; try discriminate; simpl in *; (split; [auto | try discriminate]).
  (* left: the new status is failed or canceled.  AMark without `skip`: its guard says a flag is set (assumption); a
     failed AEnd and ATimeout set lastError themselves (reflexivity); ASignal requires the cancel flag (last tactic) *)
  all: try (destruct skip; simpl in *; [discriminate|]).
  all: intros _; try assumption; try reflexivity; apply orb_true_iff; auto.
Qed.

Lemma sstep_reach : forall s l s', sstep s l = Some s' -> tbl_reachb (tbl s) (tbl s') = true.
Proof.
  intros s l s' H. destruct (sstep_effect _ _ _ H) as (_ & _ & [E | (i & n & n' & Hn & E & Hr & _)]); rewrite E.
  - apply tbl_reachb_refl.
  - eapply upd_reach; eauto.
Qed.

Lemma sstep_returned : forall s l, sph s = SReturned -> sstep s l = None.
Proof. intros s l H. destruct l; simpl; rewrite H; try reflexivity; destruct (st_at (tbl s) i); reflexivity. Qed.

Lemma recv_tbl : forall s s', recv s = Some s' -> tbl s' = tbl s /\ canc s' = canc s /\ serr s' = serr s /\ sph s' = sph s.
Proof.
  unfold recv; intros s s' H. destruct (pend s); try discriminate. destruct (workers s); try discriminate.
  inversion H; subst; simpl; auto.
Qed.

Lemma recv_snap : forall s s', recv s = Some s' -> snap_of s' = snap_of s.
Proof.
  intros s s' H. apply recv_tbl in H. destruct H as (Ht & Hc & He & Hp).
  unfold snap_of, ov_of, started. rewrite Ht, Hc, He, Hp. reflexivity.
Qed.

Definition flags_ok (s : sched) : Prop :=
  forall x, In x (tbl s) -> is_bad (nst x) = true -> serr s || canc s = true.

Lemma flags_ok_init : forall n, flags_ok (init_sched n).
Proof.
  intros n x H. unfold init_sched, init_table in H; simpl in H. apply repeat_spec in H. subst. simpl. discriminate.
Qed.

Lemma flags_ok_sstep : forall s l s', flags_ok s -> sstep s l = Some s' -> flags_ok s'.
Proof.
  intros s l s' F H x Hx Hb.
  assert (Hold : In x (tbl s) -> serr s' || canc s' = true).
  { destruct (sstep_effect _ _ _ H) as (Hc & He & _). intros Hin.
    apply orb_true_iff. destruct (proj1 (orb_true_iff _ _) (F x Hin Hb)); auto. }
  destruct (sstep_effect _ _ _ H) as (_ & _ & [E | (i & n & n' & _ & E & _ & Hn')]); rewrite E in Hx; auto.
  apply in_upd in Hx. destruct Hx as [Hx | ->]; auto.
Qed.

Lemma flags_ok_recv : forall s s', flags_ok s -> recv s = Some s' -> flags_ok s'.
Proof.
  intros s s' F H. apply recv_tbl in H. destruct H as (Ht & Hc & He & _).
  unfold flags_ok in *. rewrite Ht, Hc, He. exact F.
Qed.

(* Scheduler.Status (since b9e9fa2) says `finished` only when every step is finished or skipped: the window of
   finding F8a is closed *)
Lemma ov_success : forall s, flags_ok s -> ov_of s = OSuccess -> all_succeed (tbl s) = true.
Proof.
  intros s F. unfold ov_of, overall.
  destruct (canc s) eqn:Ec; simpl.
  - destruct (all_succeed (tbl s)); simpl; auto. discriminate.
  - destruct (started s); [|discriminate].
    destruct (any_running (tbl s)); [discriminate|]. destruct (serr s) eqn:Ee; [discriminate|].
    destruct (any_pending (tbl s)) eqn:Ep; [discriminate|]. intros _.
    apply forallb_forall. intros x Hx. specialize (F x Hx). rewrite Ee, Ec in F.
    assert (Hp : is_none (nst x) || is_running (nst x) = false).
    { destruct (is_none (nst x) || is_running (nst x)) eqn:E; auto.
      rewrite <- Ep. symmetry. apply existsb_exists. exists x. auto. }
    destruct (nst x); simpl in *; auto; discriminate || (symmetry; auto).
Qed.

Lemma no_gap_fixed : forall s, flags_ok s -> gap s = false.
Proof.
  intros s F. unfold gap, snap_of. simpl. destruct (ov_of s) eqn:E; auto.
  rewrite (ov_success s F E). reflexivity.
Qed.

Ltac astep_cases H :=
  match type of H with astep ?st ?l = Some _ => destruct l; simpl in H end;
  repeat match type of H with
         | context [match mp ?s with _ => _ end] => destruct (mp s) eqn:?; try discriminate
         | context [match fs ?s with _ => _ end] => destruct (fs s) eqn:?; try discriminate
         | context [match cp ?s with _ => _ end] => destruct (cp s) eqn:?; try discriminate
         | context [match sph ?s with _ => _ end] => destruct (sph s) eqn:?; try discriminate
         | context [match sstep ?s ?a with _ => _ end] => destruct (sstep s a) eqn:?; try discriminate
         | context [match recv ?s with _ => _ end] => destruct (recv s) eqn:?; try discriminate
         | context [match last_line ?s with _ => _ end] => destruct (last_line s) eqn:?; try discriminate
         | context [match tmp ?s with _ => _ end] => destruct (tmp s) eqn:?; try discriminate
         | context [if ?x then _ else _] => destruct x eqn:?; try discriminate
         end;
  inversion H; subst; clear H.

Lemma astep_sc : forall st l st', astep st l = Some st' ->
  sc st' = sc st \/ (exists a, sstep (sc st) a = Some (sc st')) \/ recv (sc st) = Some (sc st').
Proof. intros st l st' H. astep_cases H; simpl; eauto. Qed.

Lemma astep_reach : forall st l st', astep st l = Some st' -> tbl_reachb (tbl (sc st)) (tbl (sc st')) = true.
Proof.
  intros st l st' H. destruct (astep_sc _ _ _ H) as [E | [[a Ha] | Hr]].
  - rewrite E. apply tbl_reachb_refl.
  - eapply sstep_reach; eauto.
  - apply recv_tbl in Hr. destruct Hr as (Ht & _). rewrite Ht. apply tbl_reachb_refl.
Qed.

Lemma flags_ok_astep : forall st l st', flags_ok (sc st) -> astep st l = Some st' -> flags_ok (sc st').
Proof.
  intros st l st' F H. destruct (astep_sc _ _ _ H) as [E | [[a Ha] | Hr]].
  - rewrite E. exact F.
  - eapply flags_ok_sstep; eauto.
  - eapply flags_ok_recv; eauto.
Qed.
