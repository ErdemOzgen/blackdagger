(* DagStore - lemmas for C18.  Every statement is about `step` in an ARBITRARY world (hence in
   every world reached by any sequence of operations interleaved with recorded runs); the invariant
   `run_ops_valid` is by induction over the sequence. *)
From Coq Require Import List String Ascii Bool ZArith Arith Lia.
Import ListNotations.
From BD.DagStore Require Import Model.
Open Scope string_scope.

Lemma neq_eqb : forall p q : string, q <> p -> String.eqb p q = false.
Proof. intros. apply String.eqb_neq. congruence. Qed.

Lemma fs_get_set : forall p q b f, fs_get q (fs_set p b f) = if String.eqb p q then Some b else fs_get q f.
Proof.
  induction f as [|[k c] r IH]; simpl; [reflexivity|].
  destruct (String.eqb_spec k p) as [->|N]; simpl.
  - now destruct (String.eqb p q).
  - rewrite IH. destruct (String.eqb_spec k q) as [->|]; [now rewrite neq_eqb|reflexivity].
Qed.

Lemma fs_get_del : forall p q f, fs_get q (fs_del p f) = if String.eqb p q then None else fs_get q f.
Proof.
  induction f as [|[k c] r IH]; simpl; [now destruct (String.eqb p q)|].
  destruct (String.eqb_spec k p) as [->|N]; simpl; rewrite IH.
  - now destruct (String.eqb p q).
  - destruct (String.eqb_spec k q) as [->|]; [now rewrite neq_eqb|reflexivity].
Qed.

Lemma fs_mem_true : forall p f, fs_mem p f = true <-> fs_get p f <> None.
Proof. unfold fs_mem. intros. destruct (fs_get p f); split; intros; try congruence; auto. Qed.

Lemma fs_mem_false : forall p f, fs_mem p f = false <-> fs_get p f = None.
Proof. unfold fs_mem. intros. destruct (fs_get p f); split; intros; try congruence; auto. Qed.

Lemma h_get_set : forall l m rs h, h_get m (h_set l rs h) = if String.eqb l m then rs else h_get m h.
Proof.
  induction h as [|[k c] r IH]; simpl; [reflexivity|].
  destruct (String.eqb_spec k l) as [->|N]; simpl.
  - now destruct (String.eqb l m).
  - rewrite IH. destruct (String.eqb_spec k m) as [->|]; [now rewrite neq_eqb|reflexivity].
Qed.

Lemma h_get_rename : forall o n l h, o <> n ->
  h_get l (h_rename o n h) =
  if String.eqb o l then [] else if String.eqb n l then (h_get o h ++ h_get n h)%list else h_get l h.
Proof. intros. unfold h_rename. rewrite neq_eqb, !h_get_set by congruence. reflexivity. Qed.

Lemma h_rename_same : forall o h, h_rename o o h = h.
Proof. intros. unfold h_rename. now rewrite String.eqb_refl. Qed.

(* Strings, up to `loc_facts`: since fe0ec16 craftFilePath and AddYamlExtension leave the file that fileLocation
   gives a slash-free id as it is. *)
Lemma app_nil_r_s : forall s : string, s ++ "" = s.
Proof. induction s; simpl; congruence. Qed.

Lemma app_assoc_s : forall a b c : string, (a ++ b) ++ c = a ++ (b ++ c).
Proof. induction a; simpl; intros; congruence. Qed.

Lemma length_app_s : forall a b, String.length (a ++ b) = (String.length a + String.length b)%nat.
Proof. induction a; simpl; intros; auto. Qed.

Lemma ext_go_suf : forall s pre cur,
  match cur with Some c => exists y, pre = y ++ c | None => True end ->
  exists x, pre ++ s = x ++ ext_go s cur.
Proof.
  induction s as [|a r IH]; intros pre cur H.
  - simpl. destruct cur as [c|].
    + destruct H as [y ->]. exists y. now rewrite !app_nil_r_s.
    + exists pre. reflexivity.
  - replace (pre ++ String a r) with ((pre ++ String a "") ++ r) by (rewrite app_assoc_s; reflexivity).
    cbn [ext_go]. destruct (Ascii.eqb a ch_slash) eqn:E1.
    + apply IH. exact I.
    + destruct (Ascii.eqb a ch_dot) eqn:E2.
      * apply IH. apply Ascii.eqb_eq in E2. subst a. exists pre. reflexivity.
      * apply IH. destruct cur as [c|]; [|exact I]. destruct H as [y ->]. exists y. now rewrite app_assoc_s.
Qed.

Lemma ext_suffix : forall f, exists x, f = x ++ ext f.
Proof. intros. destruct (ext_go_suf f "" None I) as [x H]. exists x. exact H. Qed.

Lemma ext_go_sep : forall c x y cur, Ascii.eqb c ch_slash || Ascii.eqb c ch_dot = true ->
  ext_go (x ++ String c y) cur = ext_go (String c y) None.
Proof.
  intros c x y cur H. revert cur. induction x as [|a x IH]; intros cur.
  - simpl append. cbn [ext_go]. destruct (Ascii.eqb c ch_slash); [reflexivity|]. simpl in H. now rewrite H.
  - change (String a x ++ String c y) with (String a (x ++ String c y)).
    cbn [ext_go]. destruct (Ascii.eqb a ch_slash); [apply IH|]. destruct (Ascii.eqb a ch_dot); apply IH.
Qed.

Lemma ext_yaml : forall x, ext (x ++ ".yaml") = ".yaml".
Proof. intros. unfold ext. now rewrite (ext_go_sep ch_dot x "yaml"). Qed.

Lemma substring_skip : forall x y, substring (String.length x) (String.length y) (x ++ y) = y.
Proof.
  induction x as [|c x IH]; intros y; simpl.
  - induction y as [|d y IHy]; simpl; [reflexivity|]. now rewrite IHy.
  - apply IH.
Qed.

Lemma substring_take : forall x y, substring 0 (String.length x) (x ++ y) = x.
Proof.
  induction x as [|c x IH]; intros y; simpl.
  - destruct y; reflexivity.
  - now rewrite IH.
Qed.

Lemma has_suffix_app : forall x suf, has_suffix suf (x ++ suf) = true.
Proof.
  intros. unfold has_suffix. rewrite length_app_s, Nat.add_sub, substring_skip, String.eqb_refl, andb_true_r.
  apply Nat.leb_le. lia.
Qed.

Lemma trim_suffix_app : forall x suf, trim_suffix (x ++ suf) suf = x.
Proof. intros. unfold trim_suffix. rewrite has_suffix_app, length_app_s, Nat.add_sub. apply substring_take. Qed.

Lemma app_head : forall x e c d r, x ++ String d e = String c r -> c <> d -> exists r', x = String c r'.
Proof. intros [|a x] e c d r H N; injection H as -> _; [now elim N|eauto]. Qed.

Lemma add_yaml_shape : forall f, exists x, add_yaml_ext f = x ++ ".yaml" /\
  (forall c r, f = String c r -> c <> ch_dot -> exists r', x = String c r').
Proof.
  intros f. unfold add_yaml_ext. destruct (ext_suffix f) as [x0 E].
  destruct (String.eqb_spec (ext f) ".yaml") as [E1|_]; [|destruct (String.eqb_spec (ext f) ".yml") as [E2|_]].
  - rewrite E1 in E. exists x0. split; [exact E|]. intros c r F. rewrite F in E. exact (app_head _ _ _ _ _ (eq_sym E)).
  - rewrite E2 in *. exists x0. split; [rewrite E at 1; now rewrite trim_suffix_app|].
    intros c r F. rewrite F in E. exact (app_head _ _ _ _ _ (eq_sym E)).
  - exists f. split; [reflexivity|]. intros c r -> _. eauto.
Qed.

Lemma craft_yaml : forall x, craft (x ++ ".yaml") = x ++ ".yaml".
Proof. intros. unfold craft. now rewrite has_suffix_app. Qed.

Lemma add_yaml_idem : forall x, add_yaml_ext (x ++ ".yaml") = x ++ ".yaml".
Proof. intros. unfold add_yaml_ext. now rewrite ext_yaml. Qed.

Lemma loc_facts : forall dir n, has_slash n = false ->
  craft (file_loc dir n) = file_loc dir n /\ add_yaml_ext (file_loc dir n) = file_loc dir n /\
  (is_abs dir = true -> is_abs (file_loc dir n) = true).
Proof.
  intros dir n H. unfold file_loc. rewrite H.
  destruct (add_yaml_shape (dir ++ "/" ++ n)) as (x & E & A). rewrite E.
  split; [apply craft_yaml|]. split; [apply add_yaml_idem|].
  intros AB. destruct dir as [|c d]; [discriminate|]. simpl in AB. apply Ascii.eqb_eq in AB. subst c.
  destruct (A ch_slash (d ++ "/" ++ n) eq_refl) as [r' ->]; [discriminate|]. reflexivity.
Qed.

Lemma dag_loc_is_loc : forall dir n, has_slash n = false -> dag_loc dir n = file_loc dir n.
Proof. intros. unfold dag_loc. now apply loc_facts. Qed.

Definition writes (pr : prim) : list string :=
  match pr with
  | PCreateTemp p | PAppend p _ => [p]
  | PRenameFile s d => [s; d]
  | _ => []
  end.

Lemma run_prim_frame : forall f pr q, ~ In q (writes pr) -> fs_get q (run_prim f pr) = fs_get q f.
Proof.
  intros f pr q N. destruct pr; simpl in *; auto.
  - rewrite fs_get_set, neq_eqb; auto.
  - rewrite fs_get_set, neq_eqb; auto.
  - destruct (fs_get src f); auto. rewrite fs_get_set, fs_get_del, !neq_eqb; auto.
Qed.

Lemma run_prims_frame : forall ps f q, (forall pr, In pr ps -> ~ In q (writes pr)) ->
  fs_get q (run_prims f ps) = fs_get q f.
Proof.
  unfold run_prims. induction ps as [|pr ps IH]; simpl; intros f q H; auto.
  rewrite IH by auto. apply run_prim_frame; auto.
Qed.

Lemma In_firstn : forall {A} n (l : list A) x, In x (firstn n l) -> In x l.
Proof. intros A n l x H. rewrite <- (firstn_skipn n l). apply in_or_app. now left. Qed.

Section Proofs.
  Variable valid : bytes -> bool.
  Variable meta_ok : bytes -> bool.
  Variable dir : string.

  Notation step := (step valid meta_ok dir).
  Notation step_w := (step_w valid meta_ok dir).
  Notation step_res := (step_res valid meta_ok dir).
  Notation loc := (file_loc dir).

  Lemma step_eta : forall w o, step w o = (step_w w o, step_res w o, snd (step w o)).
  Proof. intros. unfold Model.step_w, Model.step_res. now destruct (step w o) as [[w' r] out]. Qed.

  Theorem create_fresh : forall w n s,
    fs_get (loc n) (w_defs w) <> None -> step w (OCreate n s) = (w, RExists, []).
  Proof. intros. simpl. apply fs_mem_true in H. now rewrite H. Qed.

  Theorem create_free : forall w n s,
    fs_get (loc n) (w_defs w) = None -> step w (OCreate n s) = (set_defs w (fs_set (loc n) s (w_defs w)), ROk, []).
  Proof. intros. simpl. apply fs_mem_false in H. now rewrite H. Qed.

  Theorem save_invalid : forall w n s, valid s = false -> step w (OSave n s) = (w, RInvalid, []).
  Proof. intros. simpl. now rewrite H. Qed.

  Theorem save_missing : forall w n s, valid s = true -> fs_get (loc n) (w_defs w) = None ->
    step w (OSave n s) = (w, RNotExist, []).
  Proof. intros. simpl. rewrite H. simpl. apply fs_mem_false in H0. now rewrite H0. Qed.

  Theorem save_valid_ok : forall w n s, valid s = true -> fs_get (loc n) (w_defs w) <> None ->
    step w (OSave n s) = (set_defs w (fs_set (loc n) s (w_defs w)), ROk, []).
  Proof. intros. simpl. rewrite H. simpl. apply fs_mem_true in H0. now rewrite H0. Qed.

  Notation prims := (save_prims valid dir).
  Notation crash := (crash_fs valid dir).

  Lemma tmp_ne : forall p rnd, tmp_of p rnd <> p.
  Proof.
    unfold tmp_of. intros p rnd E. apply (f_equal String.length) in E.
    rewrite length_app_s in E. simpl in E. lia.
  Qed.

  Theorem crash_invalid : forall f n s rnd cut t, valid s = false -> crash f n s rnd cut t = f.
  Proof.
    intros f n s rnd cut t H. unfold crash_fs, save_prims. rewrite H. now destruct cut as [|[|cut]].
  Qed.

  Theorem crash_missing : forall f n s rnd cut t, fs_get (loc n) f = None -> crash f n s rnd cut t = f.
  Proof.
    intros f n s rnd cut t H. apply fs_mem_false in H. unfold crash_fs, save_prims. rewrite H.
    destruct (valid s); now destruct cut as [|[|[|cut]]].
  Qed.

  (* 7: the final rename is the 8th and last step of `save_prims` *)
  Lemma prims_early : forall f n s rnd pr, In pr (firstn 7 (prims f n s rnd)) ->
    writes pr = [] \/ writes pr = [tmp_of (loc n) rnd].
  Proof.
    intros f n s rnd pr H. unfold save_prims in H.
    destruct (valid s); [destruct (fs_mem (loc n) f)|]; simpl in H;
      repeat (destruct H as [<-|H]; [auto|]); contradiction.
  Qed.

  Lemma prims_append : forall f n s rnd p c, In (PAppend p c) (prims f n s rnd) -> p = tmp_of (loc n) rnd.
  Proof.
    intros f n s rnd p c H. unfold save_prims in H.
    destruct (valid s); [destruct (fs_mem (loc n) f)|]; simpl in H;
      repeat (destruct H as [H|H]; [try discriminate H; now injection H|]); contradiction.
  Qed.

  Lemma prefix_early : forall f n s rnd k q, (k <= 7)%nat -> q <> tmp_of (loc n) rnd ->
    fs_get q (run_prims f (firstn k (prims f n s rnd))) = fs_get q f.
  Proof.
    intros f n s rnd k q K N. apply run_prims_frame. intros pr H.
    rewrite <- (Nat.min_l k 7), <- firstn_firstn in H by exact K. apply In_firstn in H.
    destruct (prims_early _ _ _ _ _ H) as [-> | ->]; [intros []|intros [E|[]]; congruence].
  Qed.

  Lemma crash_early : forall f n s rnd cut t q, (cut <= 7)%nat -> q <> tmp_of (loc n) rnd ->
    fs_get q (crash f n s rnd cut t) = fs_get q f.
  Proof.
    intros f n s rnd cut t q C N. unfold crash_fs.
    destruct (nth_error _ cut) as [[]|] eqn:E; try now apply prefix_early.
    destruct (t <=? _)%nat; [|now apply prefix_early].
    rewrite run_prim_frame; [now apply prefix_early|]. simpl. intros [<-|[]].
    apply nth_error_In, prims_append in E. contradiction.
  Qed.

  Lemma crash_fs_ge : forall f n s rnd cut t, (8 <= cut)%nat -> crash f n s rnd cut t = run_prims f (prims f n s rnd).
  Proof.
    intros. unfold crash_fs.
    assert (List.length (prims f n s rnd) <= 8)%nat
      by (unfold save_prims; destruct (valid s); [destruct (fs_mem (loc n) f)|]; simpl; lia).
    rewrite firstn_all2 by lia. rewrite (proj2 (nth_error_None _ _)) by lia. reflexivity.
  Qed.

  Lemma run_save : forall f n s rnd, let t := tmp_of (loc n) rnd in
    run_prims f (prims f n s rnd) =
    if valid s && fs_mem (loc n) f then fs_set (loc n) s (fs_del t (fs_set t s (fs_set t "" f))) else f.
  Proof.
    intros. unfold save_prims. destruct (valid s); [destruct (fs_mem (loc n) f)|]; simpl; auto.
    now rewrite !fs_get_set, !String.eqb_refl.
  Qed.

  Theorem crash_before_rename : forall f n s rnd cut t, (cut <= 7)%nat ->
    fs_get (loc n) (crash f n s rnd cut t) = fs_get (loc n) f.
  Proof. intros. apply crash_early; [assumption|]. intros E. symmetry in E. exact (tmp_ne _ _ E). Qed.

  Theorem crash_after_rename : forall f n s rnd cut t,
    valid s = true -> fs_get (loc n) f <> None -> (8 <= cut)%nat ->
    fs_get (loc n) (crash f n s rnd cut t) = Some s.
  Proof.
    intros f n s rnd cut t V E C. apply fs_mem_true in E.
    rewrite crash_fs_ge, run_save, V, E by assumption. cbn [andb]. now rewrite fs_get_set, String.eqb_refl.
  Qed.

  (* what os.CreateTemp puts in the place of the `*` of its pattern (dag_store.go:102) is a decimal number *)
  Fixpoint plain_str (s : string) : bool :=
    match s with
    | EmptyString => true
    | String c r => negb (Ascii.eqb c ch_slash) && negb (Ascii.eqb c ch_dot) && plain_str r
    end.

  Lemma ext_go_plain : forall r e, plain_str r = true -> ext_go r (Some e) = e ++ r.
  Proof.
    induction r as [|c r IH]; simpl; intros e H.
    - now rewrite app_nil_r_s.
    - apply andb_true_iff in H. destruct H as [H H3]. apply andb_true_iff in H. destruct H as [H1 H2].
      apply negb_true_iff in H1, H2. rewrite H1, H2, IH by auto. apply app_assoc_s.
  Qed.

  Lemma ext_tmp : forall x rnd, plain_str rnd = true -> ext (x ++ ".tmp-" ++ rnd) = ".tmp-" ++ rnd.
  Proof.
    intros. unfold ext. rewrite (ext_go_sep ch_dot x ("tmp-" ++ rnd)) by reflexivity.
    cbn [ext_go Ascii.eqb]. simpl. now rewrite ext_go_plain.
  Qed.

  Lemma strip_prefix_some : forall pre s0 b, strip_prefix pre s0 = Some b -> s0 = pre ++ b.
  Proof.
    induction pre as [|c r IH]; simpl; intros s0 b H; [congruence|].
    destruct s0 as [|d t]; [discriminate|]. destruct (Ascii.eqb c d) eqn:E; [|discriminate].
    apply Ascii.eqb_eq in E. subst d. f_equal. auto.
  Qed.

  Lemma store_rename_get : forall f old new d,
    store_rename dir f old new = (ROk, d) ->
    exists b, fs_get (loc old) f = Some b /\ fs_get (loc new) d = Some b /\
              (loc old <> loc new -> fs_get (loc old) d = None /\ fs_get (loc new) f = None) /\
              (loc old = loc new -> d = f) /\
              (forall q, q <> loc old -> q <> loc new -> fs_get q d = fs_get q f).
  Proof.
    unfold store_rename. intros f old new d H.
    destruct (String.eqb_spec (loc old) (loc new)) as [E|E]; simpl in H.
    - destruct (fs_get (loc old) f) as [b|] eqn:G; [|discriminate].
      injection H as <-. exists b. rewrite <- E. repeat split; auto; intros; congruence.
    - destruct (fs_mem (loc new) f) eqn:M; [discriminate|].
      destruct (fs_get (loc old) f) as [b|] eqn:G; [|discriminate]. injection H as <-.
      apply fs_mem_false in M. exists b. rewrite fs_get_set, String.eqb_refl. repeat split; auto.
      + now rewrite fs_get_set, fs_get_del, neq_eqb, String.eqb_refl.
      + intros; congruence.
      + intros. now rewrite fs_get_set, fs_get_del, !neq_eqb.
  Qed.

  Lemma store_rename_others : forall f old new d q, store_rename dir f old new = (ROk, d) ->
    q <> loc old -> q <> loc new -> fs_get q d = fs_get q f.
  Proof. intros f old new d q S. destruct (store_rename_get _ _ _ _ S) as (b & _ & _ & _ & _ & O). apply O. Qed.

  Lemma store_rename_err : forall f old new e d, store_rename dir f old new = (e, d) -> e <> ROk -> d = f.
  Proof.
    unfold store_rename. intros f old new e d H N.
    destruct (negb (String.eqb (loc old) (loc new)) && fs_mem (loc new) f); [congruence|].
    destruct (fs_get (loc old) f); congruence.
  Qed.

  Lemma store_rename_taken : forall f old new,
    loc old <> loc new -> fs_get (loc new) f <> None -> store_rename dir f old new = (RExists, f).
  Proof.
    intros f old new N T. unfold store_rename. apply String.eqb_neq in N. apply fs_mem_true in T.
    now rewrite N, T.
  Qed.

  Lemma step_store_rename : forall w old new,
    step w (OStoreRename old new) = match store_rename dir (w_defs w) old new with
                                    | (ROk, d) => (set_defs w d, ROk, [])
                                    | (e, _) => (w, e, [])
                                    end.
  Proof. reflexivity. Qed.

  Lemma rename_store_refused : forall w old new e d, store_rename dir (w_defs w) old new = (e, d) -> e <> ROk ->
    step_res w (ORename old new) <> ROk /\ step_w w (ORename old new) = w.
  Proof.
    intros w old new e d S N. unfold Model.step_res, Model.step_w. simpl. rewrite S.
    destruct (load_at valid (w_defs w) (loc old)) as [[] ol]; simpl; try (split; [discriminate|reflexivity]).
    now destruct e.
  Qed.

  Lemma rename_world : forall w old new, let w' := step_w w (ORename old new) in
    w_flags w' = w_flags w /\
    (w_defs w' = w_defs w \/ store_rename dir (w_defs w) old new = (ROk, w_defs w')).
  Proof.
    intros. subst w'. unfold Model.step_w. simpl.
    destruct (load_at valid (w_defs w) (loc old)) as [[] ol]; simpl; auto.
    destruct (store_rename dir (w_defs w) old new) as [[] d]; simpl; auto.
    destruct (load_at valid d (loc new)) as [[] nl]; simpl; auto.
    destruct (hist_rename (w_hist w) ol nl); simpl; auto.
  Qed.

  Theorem rename_flags : forall w old new, w_flags (step_w w (ORename old new)) = w_flags w.
  Proof. intros. apply rename_world. Qed.

  Lemma load_at_loc : forall f n, has_slash n = false ->
    load_at valid f (loc n) = match fs_get (loc n) f with
                              | Some b => (if valid b then ROk else RInvalid, loc n)
                              | None => (RNotExist, loc n)
                              end.
  Proof.
    intros f n S. destruct (loc_facts dir n S) as (C & _ & _).
    unfold load_at. rewrite C. destruct (fs_get (loc n) f) as [b|]; [now destruct (valid b)|reflexivity].
  Qed.

  Hypothesis dir_abs : is_abs dir = true.   (* the DAGs directory is an absolute path (config) *)

  Lemma rename_eq : forall w old new, has_slash old = false -> has_slash new = false ->
    step w (ORename old new) =
    match fs_get (loc old) (w_defs w) with
    | None => (w, RNotExist, [])
    | Some b => if valid b
                then match store_rename dir (w_defs w) old new with
                     | (ROk, d) => (mkW d (h_rename (loc old) (loc new) (w_hist w)) (w_flags w), ROk, [])
                     | (e, _) => (w, e, [])
                     end
                else (w, RInvalid, [])
    end.
  Proof.
    intros w old new O1 O2. simpl. rewrite load_at_loc by exact O1.
    destruct (fs_get (loc old) (w_defs w)) as [b|] eqn:G; [|reflexivity].
    destruct (valid b) eqn:V; [|reflexivity].
    destruct (store_rename dir (w_defs w) old new) as [[] d] eqn:S; try reflexivity.
    destruct (store_rename_get _ _ _ _ S) as (b' & G' & GN & _).
    rewrite load_at_loc, GN by exact O2. replace b' with b by congruence. rewrite V.
    destruct (loc_facts dir old O1) as (_ & A1 & B1). destruct (loc_facts dir new O2) as (_ & A2 & B2).
    unfold hist_rename. now rewrite A1, A2, (B1 dir_abs), (B2 dir_abs).
  Qed.

  (* Delete is excepted: client.DeleteDAG removes the history before it looks for the file *)
  Theorem step_failed_unchanged : forall w o,
    match o with
    | ODelete _ _ => False
    | ORename old new => has_slash old = false /\ has_slash new = false
    | _ => True
    end -> step_res w o <> ROk -> step_w w o = w.
  Proof.
    intros w o G. unfold Model.step_res, Model.step_w.
    destruct o as [n s|n s|old new|old new|n l|id on|l z ls c| |n]; try contradiction; try (simpl; congruence).
    - simpl. destruct (fs_mem (loc n) (w_defs w)); simpl; congruence.
    - simpl. destruct (valid s); simpl; [|reflexivity]. destruct (fs_mem (loc n) (w_defs w)); simpl; congruence.
    - destruct G as [O1 O2]. rewrite rename_eq by assumption.
      destruct (fs_get (loc old) (w_defs w)) as [b|]; [|reflexivity]. destruct (valid b); [|reflexivity].
      destruct (store_rename dir (w_defs w) old new) as [[] d]; simpl; congruence.
    - simpl. destruct (store_rename dir (w_defs w) old new) as [[] d]; simpl; congruence.
    - simpl. now destruct (fs_get (loc n) (w_defs w)).
  Qed.

  Theorem delete_local : forall w n l,
    let w' := step_w w (ODelete n l) in
    (fs_get (loc n) (w_defs w) <> None -> step_res w (ODelete n l) = ROk) /\
    fs_get (loc n) (w_defs w') = None /\
    h_get l (w_hist w') = [] /\
    (forall q, q <> loc n -> fs_get q (w_defs w') = fs_get q (w_defs w)) /\
    (forall m, m <> l -> h_get m (w_hist w') = h_get m (w_hist w)) /\
    w_flags w' = w_flags w.
  Proof.
    intros. subst w'. unfold Model.step_w, Model.step_res. simpl. unfold h_remove_all.
    destruct (fs_mem (loc n) (w_defs w)) eqn:E; simpl; rewrite h_get_set, String.eqb_refl.
    - rewrite fs_get_del, String.eqb_refl. repeat split; auto; intros; now rewrite ?fs_get_del, ?h_get_set, neq_eqb.
    - apply fs_mem_false in E. repeat split; auto; [congruence|intros; now rewrite h_get_set, neq_eqb].
  Qed.

  Variable tmpl : bytes.
  Hypothesis tmpl_valid : valid tmpl = true.

  Definition client_op (o : op) : Prop := match o with OCreate _ s => s = tmpl | _ => True end.
  Definition defs_valid (w : world) : Prop := forall p t, fs_get p (w_defs w) = Some t -> valid t = true.

  Notation all_ok f := (forall p t, fs_get p f = Some t -> valid t = true).

  (* `Proof using Type`: these three must not take `dir_abs` and `tmpl_valid` into their statements *)

  Lemma set_ok : forall f q b, all_ok f -> valid b = true -> all_ok (fs_set q b f).
  Proof using Type. intros f q b F B p t. rewrite fs_get_set. destruct (String.eqb q p); [intros [= <-]; exact B|apply F]. Qed.

  Lemma del_ok : forall f q, all_ok f -> all_ok (fs_del q f).
  Proof using Type. intros f q F p t. rewrite fs_get_del. destruct (String.eqb q p); [discriminate|apply F]. Qed.

  Lemma store_rename_valid : forall f old new e d, all_ok f -> store_rename dir f old new = (e, d) -> all_ok d.
  Proof using Type.
    unfold store_rename. intros f old new e d F S.
    destruct (negb (String.eqb (loc old) (loc new)) && fs_mem (loc new) f); [now injection S as <- <-|].
    destruct (fs_get (loc old) f) as [b|] eqn:GB; injection S as <- <-; [|exact F].
    destruct (String.eqb (loc old) (loc new)); [exact F|]. apply set_ok; [now apply del_ok|eauto].
  Qed.

  Lemma step_preserves_valid : forall w o, client_op o -> defs_valid w -> defs_valid (step_w w o).
  Proof using tmpl_valid.
    unfold defs_valid. intros w o C IH.
    destruct o as [n s|n s|old new|old new|n l|id on|l z ls c| |n]; try exact IH; unfold Model.step_w.
    - simpl in *. subst s. destruct (fs_mem (loc n) (w_defs w)); [exact IH|]. now apply set_ok.
    - simpl. destruct (valid s) eqn:V; [|exact IH]. destruct (fs_mem (loc n) (w_defs w)); [|exact IH]. now apply set_ok.
    - destruct (rename_world w old new) as (_ & [E|S]); fold (step_w w (ORename old new)).
      + now rewrite E.
      + exact (store_rename_valid _ _ _ _ _ IH S).
    - simpl. destruct (store_rename dir (w_defs w) old new) as [e d] eqn:S.
      pose proof (store_rename_valid _ _ _ _ _ IH S). now destruct e.
    - simpl. destruct (fs_mem (loc n) (w_defs w)); [|exact IH]. now apply del_ok.
    - simpl. now destruct (fs_get (loc n) (w_defs w)).
  Qed.

  Lemma run_ops_valid : forall ops w, Forall client_op ops -> defs_valid w ->
    defs_valid (run_ops valid meta_ok dir w ops).
  Proof using tmpl_valid.
    unfold run_ops. induction ops as [|o ops IH]; simpl; intros w F V; [exact V|].
    inversion F; subst. apply IH; [assumption|]. now apply step_preserves_valid.
  Qed.

End Proofs.

Definition all_valid (_ : bytes) : bool := true.

Definition w_two : world :=
  mkW [("/d/a.yaml", "text of a"); ("/d/b.yaml", "text of b")]
      [("/d/a.yaml", [mkRun 100 [mkStatus "ra" 4 []]]); ("/d/b.yaml", [mkRun 200 [mkStatus "rb" 2 []]])] [].

(* the input on which C18_rename_fresh failed before 87dde6e (rename a -> b with b taken): now refused, and
   definitions and both histories are what they were *)
Example ex_rename_fresh :
  file_loc "/d" "a" <> file_loc "/d" "b" /\ fs_get (file_loc "/d" "b") (w_defs w_two) <> None /\
  step all_valid all_valid "/d" w_two (ORename "a" "b") = (w_two, RExists, []) /\
  step all_valid all_valid "/d" w_two (OStoreRename "a" "b") = (w_two, RExists, []).
Proof. vm_compute. split; [discriminate|split; [discriminate|split; reflexivity]]. Qed.

(* the input on which C18_save_atomic failed before e29932b (kill after 3 primitive steps): the definition
   still holds the old text; all crash points of that save *)
Example ex_save_atomic :
  map (fun cut => fs_get "/d/a.yaml" (crash_fs all_valid "/d" [("/d/a.yaml", "old text")] "a" "new text" "42" cut 0))
      [0; 1; 2; 3; 4; 5; 6; 7; 8; 9]%nat
  = [Some "old text"; Some "old text"; Some "old text"; Some "old text"; Some "old text"; Some "old text";
     Some "old text"; Some "old text"; Some "new text"; Some "new text"] /\
  crash_fs all_valid "/d" [("/d/a.yaml", "old text")] "a" "new text" "42" 3 4
  = [("/d/a.yaml", "old text"); ("/d/a.yaml.tmp-42", "new ")] /\
  snd (step all_valid all_valid "/d" (mkW (crash_fs all_valid "/d" [("/d/a.yaml", "old text")] "a" "new text" "42" 5 0) [] []) OList)
  = ["a.yaml"].
Proof. repeat split; reflexivity. Qed.

(* the inputs on which C18_delete_other_dag / C18_rename_carries failed for names with a foreign extension before
   fe0ec16 (F18c):
   a.b and a.b.yaml now name the SAME definition file, deleting a.b removes that DAG and its history and
   leaves the neighbour alone ... *)
Definition w_dotted : world :=
  mkW [("/d/a.b.yaml", "t"); ("/d/a.yaml", "u")]
      [("/d/a.b.yaml", [mkRun 100 [mkStatus "r" 4 []]]); ("/d/a.yaml", [mkRun 200 [mkStatus "q" 4 []]])] [].

Example ex_delete_foreign_extension :
  file_loc "/d" "a.b" = "/d/a.b.yaml" /\ file_loc "/d" "a.b.yaml" = "/d/a.b.yaml" /\ dag_loc "/d" "a.b" = "/d/a.b.yaml" /\
  step all_valid all_valid "/d" w_dotted (ODelete "a.b" (dag_loc "/d" "a.b")) =
    (mkW [("/d/a.yaml", "u")] [("/d/a.b.yaml", []); ("/d/a.yaml", [mkRun 200 [mkStatus "q" 4 []]])] [], ROk, []).
Proof. repeat split; reflexivity. Qed.

(* ... and a rename to v1.2 is accepted: the definition and its history are at v1.2.yaml, and it is listed *)
Example ex_rename_foreign_extension :
  step all_valid all_valid "/d" (mkW [("/d/a.yaml", "t")] [("/d/a.yaml", [mkRun 100 [mkStatus "r" 4 []]])] []) (ORename "a" "v1.2") =
    (mkW [("/d/v1.2.yaml", "t")] [("/d/a.yaml", []); ("/d/v1.2.yaml", [mkRun 100 [mkStatus "r" 4 []]])] [], ROk, []) /\
  snd (step all_valid all_valid "/d" (mkW [("/d/v1.2.yaml", "t")] [] []) OList) = ["v1.2.yaml"] /\
  file_loc "/d" "a.yml" = "/d/a.yaml" /\ file_loc "/d" "a b" = "/d/a b.yaml".
Proof. repeat split; reflexivity. Qed.

(* the hypotheses of the theorems are satisfiable by concrete non-trivial states *)
Example ex_create_fresh : fs_get (file_loc "/d" "a") (w_defs w_two) <> None /\
  step all_valid all_valid "/d" w_two (OCreate "a" "x") = (w_two, RExists, []).
Proof. vm_compute. split; [discriminate|reflexivity]. Qed.

Example ex_save : step_res all_valid all_valid "/d" w_two (OSave "a" "new") = ROk /\
  fs_get "/d/a.yaml" (w_defs (step_w all_valid all_valid "/d" w_two (OSave "a" "new"))) = Some "new" /\
  step (fun _ => false) all_valid "/d" w_two (OSave "a" "bad") = (w_two, RInvalid, []).
Proof. repeat split; reflexivity. Qed.

Example ex_rename_carries :
  step_res all_valid all_valid "/d" w_two (ORename "a" "c") = ROk /\
  fs_get "/d/c.yaml" (w_defs (step_w all_valid all_valid "/d" w_two (ORename "a" "c"))) = Some "text of a" /\
  h_get "/d/c.yaml" (w_hist (step_w all_valid all_valid "/d" w_two (ORename "a" "c"))) = [mkRun 100 [mkStatus "ra" 4 []]] /\
  h_get "/d/b.yaml" (w_hist (step_w all_valid all_valid "/d" w_two (ORename "a" "c"))) = [mkRun 200 [mkStatus "rb" 2 []]].
Proof. repeat split; reflexivity. Qed.

Example ex_delete_local :
  step_res all_valid all_valid "/d" w_two (ODelete "a" (dag_loc "/d" "a")) = ROk /\
  w_defs (step_w all_valid all_valid "/d" w_two (ODelete "a" (dag_loc "/d" "a"))) = [("/d/b.yaml", "text of b")] /\
  h_get "/d/b.yaml" (w_hist (step_w all_valid all_valid "/d" w_two (ODelete "a" (dag_loc "/d" "a")))) = [mkRun 200 [mkStatus "rb" 2 []]].
Proof. repeat split; reflexivity. Qed.

Example ex_save_fault :
  map (fun k => fault_fs all_valid "/d" [("/d/a.yaml", "old text")] "a" "new text" "42" k) [2; 3; 4; 7]%nat
  = [[("/d/a.yaml", "old text")]; [("/d/a.yaml", "old text")]; [("/d/a.yaml", "old text")]; [("/d/a.yaml", "old text")]].
Proof. reflexivity. Qed.

Example ex_tmp_plain : plain_str "1234567890" = true.
Proof. reflexivity. Qed.

Example ex_defs_always_valid :
  Forall (client_op template) [OCreate "a" template; OSave "a" "x"; ORename "a" "b"; ODelete "b" "/d/b.yaml"].
Proof. repeat constructor. Qed.
