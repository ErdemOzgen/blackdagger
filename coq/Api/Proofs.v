(* Api - lemmas for C20: for ALL worlds, DAG ids and request bodies. *)
From Coq Require Import List String Ascii Bool ZArith Arith Lia.
Import ListNotations.
From BD.DagStore Require Import Model Proofs.
From BD.Api Require Import Model.
Open Scope string_scope.

Lemma upd_nth_length : forall {A} (f : A -> A) l i, List.length (upd_nth i f l) = List.length l.
Proof. induction l; destruct i; simpl; auto. Qed.

Lemma upd_nth_same : forall {A} (f : A -> A) l i x, nth_error l i = Some x -> nth_error (upd_nth i f l) i = Some (f x).
Proof. induction l; destruct i; simpl; intros; try discriminate; auto. congruence. Qed.

Lemma upd_nth_other : forall {A} (f : A -> A) l i k, k <> i -> nth_error (upd_nth i f l) k = nth_error l k.
Proof.
  induction l; destruct i; destruct k; simpl; intros; auto; try congruence.
Qed.

Lemma pick_idx_from_spec : forall rq rs k best i z,
  pick_idx_from rq rs k best = Some (i, z) ->
  best = Some (i, z) \/ (exists j r, i = (k + j)%nat /\ nth_error rs j = Some r /\ run_has_req rq r = true).
Proof.
  induction rs as [|r t IH]; simpl; intros k best i z H; auto.
  apply IH in H. destruct H as [H|(j & r' & -> & N & R)].
  - destruct (run_has_req rq r) eqn:E; auto.
    destruct best as [[bi bz]|].
    + destruct (bz <? r_stamp r)%Z; auto.
      injection H as <- <-. right. exists 0%nat, r. auto.
    + injection H as <- <-. right. exists 0%nat, r. auto.
  - right. exists (S j), r'. rewrite <- plus_n_Sm. auto.
Qed.

Lemma pick_idx_spec : forall rq rs i, pick_idx rq rs = Some i ->
  exists r, nth_error rs i = Some r /\ run_has_req rq r = true.
Proof.
  unfold pick_idx. intros rq rs i H.
  destruct (pick_idx_from rq rs 0 None) as [[j z]|] eqn:E; [|discriminate]. injection H as ->.
  apply pick_idx_from_spec in E. destruct E as [E|(j & r & -> & N & R)]; [discriminate|]. eauto.
Qed.

Lemma last_node_idx_from_spec : forall nm ns k acc j,
  last_node_idx_from nm ns k acc = Some j ->
  acc = Some j \/ (exists d n, j = (k + d)%nat /\ nth_error ns d = Some n /\ n_name n = nm).
Proof.
  induction ns as [|n t IH]; simpl; intros k acc j H; auto.
  apply IH in H. destruct H as [H|(d & n' & -> & N & R)].
  - destruct (String.eqb_spec (n_name n) nm) as [E|_]; auto.
    injection H as <-. right. exists 0%nat, n. auto.
  - right. exists (S d), n'. rewrite <- plus_n_Sm. auto.
Qed.

Lemma last_node_idx_spec : forall nm ns j, last_node_idx nm ns = Some j ->
  exists n, nth_error ns j = Some n /\ n_name n = nm.
Proof.
  unfold last_node_idx. intros nm ns j H. apply last_node_idx_from_spec in H.
  destruct H as [H|(d & n & -> & N & R)]; [discriminate|]. eauto.
Qed.

Lemma last_char_app : forall s c, last_char (s ++ String c EmptyString) = Some c.
Proof.
  induction s as [|d r IH]; simpl; intros; auto.
  rewrite IH. destruct (r ++ String c EmptyString) eqn:E; auto.
  destruct r; discriminate.
Qed.

Lemma drop_last_app : forall s c, drop_last (s ++ String c EmptyString) = s.
Proof.
  induction s as [|d r IH]; simpl; intros; auto.
  rewrite IH. destruct (r ++ String c EmptyString) eqn:E; auto.
  destruct r; discriminate.
Qed.

Lemma remove_quotes_quote : forall s, remove_quotes (quote s) = s.
Proof.
  intros. unfold quote, remove_quotes. simpl String.length.
  rewrite length_app_s, Nat.add_1_r, (last_char_app (String ch_quote s) _ : last_char (String _ (s ++ _)) = _).
  simpl. apply drop_last_app.
Qed.

Lemma has_char_cons : forall c d r, has_char c (String d r) = Ascii.eqb c d || has_char c r.
Proof. reflexivity. Qed.

Lemma escape_cons : forall c r, escape_arg (String c r) =
  if Ascii.eqb c ch_cr then String ch_bslash (String "r"%char (escape_arg r))
  else if Ascii.eqb c ch_lf then String ch_bslash (String "n"%char (escape_arg r))
  else String c (escape_arg r).
Proof. reflexivity. Qed.

Lemma escape_fixed : forall p, escape_arg p = p <-> has_char ch_cr p = false /\ has_char ch_lf p = false.
Proof.
  induction p as [|c r IH]; [easy|].
  rewrite escape_cons, !has_char_cons, (Ascii.eqb_sym ch_cr), (Ascii.eqb_sym ch_lf).
  destruct (Ascii.eqb_spec c ch_cr) as [->|_]; [|destruct (Ascii.eqb_spec c ch_lf) as [->|_]].
  - split; [intros E; injection E as E _; cbv in E|intros [E _]]; discriminate E.
  - split; [intros E; injection E as E _; cbv in E|intros [_ E]]; discriminate E.
  - simpl. rewrite <- IH. split; [intros [= E]; exact E|intros ->; reflexivity].
Qed.

Lemma has_char_app : forall c s t, has_char c (s ++ t) = has_char c s || has_char c t.
Proof. induction s; simpl; intros; auto. rewrite IHs. now rewrite orb_assoc. Qed.

(* The status codes under names: a goal or hypothesis that shows them as unary numerals makes every step that
   abstracts over it (destruct, rewrite) pay for hundreds of constructors. *)
Definition c200 : nat := 200.
Definition c400 : nat := 400.
Definition c500 : nat := 500.

(* case analysis on the head of the argument of P only: nothing else of the goal is looked at *)
Lemma if_case : forall {A} (P : A -> Prop) (c : bool) x y,
  (c = true -> P x) -> (c = false -> P y) -> P (if c then x else y).
Proof. intros A P [|]; auto. Qed.

Lemma opt_case : forall {A B} (P : B -> Prop) (o : option A) f y,
  (forall v, o = Some v -> P (f v)) -> (o = None -> P y) -> P (match o with Some v => f v | None => y end).
Proof. intros A B P [v|]; auto. Qed.

Section Proofs.
  Variable valid graph_ok meta_ok : bytes -> bool.
  Variable dir : string.
  Variable retry_ok : bool.

  Notation post := (post valid graph_ok meta_ok dir retry_ok).
  Notation view := (view valid graph_ok dir).
  Notation step_w := (step_w valid meta_ok dir).
  Notation step_res := (step_res valid meta_ok dir).

  Definition is_mark (act : string) : Prop := act = "mark-success" \/ act = "mark-failed".
  Definition mark_target (act : string) : nat := if String.eqb act "mark-success" then st_success else st_error.

  Definition known_action (act : string) : bool :=
    existsb (String.eqb act) ["start"; "suspend"; "stop"; "retry"; "mark-success"; "mark-failed"; "save"; "rename"].

  Lemma set_world_id : forall a, set_world a (a_w a) = a.
  Proof. now destruct a. Qed.

  (* an answer that, unless it is 200, leaves the world alone and starts nothing (X: the exception for retry) *)
  Definition quiet (X : Prop) (a : aworld) (r : nat * aworld * list event) : Prop :=
    fst (fst r) <> c200 -> snd (fst r) = a /\ (snd r = [] \/ X).

  Lemma quiet_refusal : forall X a c, quiet X a (c, a, []).
  Proof. intros X a c _. auto. Qed.

  Lemma quiet_ok : forall X a a' ev, quiet X a (c200, a', ev).
  Proof. intros X a a' ev C. now elim C. Qed.

  Local Hint Resolve quiet_refusal quiet_ok : core.

  (* `post` action by action; the comparisons of the action with closed strings reduce by computation *)
  Lemma post_start : forall a id b, b_action b = Some "start" ->
    post a id b = match view (a_w a) id with
                  | None => (c400, a, [])
                  | Some loc => if Nat.eqb (latest_status a loc) st_running then (c400, a, [])
                                else (c200, a, spawn (start_argv (b_params b) loc))
                  end.
  Proof. intros a id [act v rq st p] [= ->]. reflexivity. Qed.

  Lemma post_stop : forall a id b, b_action b = Some "stop" ->
    post a id b = match view (a_w a) id with
                  | None => (c400, a, [])
                  | Some loc => if negb (Nat.eqb (latest_status a loc) st_running) then (c400, a, [])
                                else match live_get loc (a_live a) with
                                     | Some _ => (c200, a, [EStop loc])
                                     | None => (c400, a, [])
                                     end
                  end.
  Proof. intros a id [act v rq st p] [= ->]. reflexivity. Qed.

  Lemma post_mark : forall a id b act, b_action b = Some act -> is_mark act ->
    post a id b = match view (a_w a) id with
                  | None => (c400, a, [])
                  | Some loc => mark a loc b (mark_target act)
                  end.
  Proof. intros a id [act' v rq st p] act [= ->] [-> | ->]; reflexivity. Qed.

  Lemma post_retry : forall a id b, b_action b = Some "retry" ->
    post a id b = match view (a_w a) id with
                  | None => (c400, a, [])
                  | Some loc => if String.eqb (b_reqid b) "" then (c400, a, [])
                                else (if retry_ok then c200 else c500, a, spawn ["retry"; "--req=" ++ b_reqid b; loc])
                  end.
  Proof. intros a id [act v rq st p] [= ->]. reflexivity. Qed.

  Lemma post_suspend : forall a id b, b_action b = Some "suspend" ->
    post a id b = match view (a_w a) id with
                  | None => (c400, a, [])
                  | Some _ => let '(w', _, _) := step valid meta_ok dir (a_w a) (OSuspend id (String.eqb (b_value b) "true")) in
                              (c200, set_world a w', [])
                  end.
  Proof. intros a id [act v rq st p] [= ->]. reflexivity. Qed.

  (* save and rename answer by the result of the store operation *)
  Definition by_step (a : aworld) (o : op) : nat * aworld * list event :=
    let '(w', r, _) := step valid meta_ok dir (a_w a) o in (code_of r c500, set_world a w', []).

  Lemma post_save : forall a id b, b_action b = Some "save" -> post a id b = by_step a (OSave id (b_value b)).
  Proof. intros a id [act v rq st p] [= ->]. reflexivity. Qed.

  Lemma post_rename : forall a id b, b_action b = Some "rename" ->
    post a id b = match view (a_w a) id with
                  | None => (c400, a, [])
                  | Some _ => if String.eqb (b_value b) "" then (c400, a, [])
                              else by_step a (ORename id (b_value b))
                  end.
  Proof. intros a id [act v rq st p] [= ->]. reflexivity. Qed.

  Lemma by_step_quiet : forall X a o,
    (step_res (a_w a) o <> ROk -> step_w (a_w a) o = a_w a) -> quiet X a (by_step a o).
  Proof.
    unfold by_step, quiet. intros X a o. rewrite (step_eta valid meta_ok dir). simpl. intros F C.
    rewrite F, set_world_id; auto. intros E. rewrite E in C. now apply C.
  Qed.

  Theorem refused_missing_action : forall a id b, b_action b = None -> post a id b = (400, a, []).
  Proof. intros a id [act v rq st p] [= ->]. reflexivity. Qed.

  Theorem refused_unknown_dag : forall a id b act,
    b_action b = Some act -> act <> "save" -> view (a_w a) id = None -> post a id b = (400, a, []).
  Proof.
    intros a id [o v rq st p] act [= ->] N V. change 400 with c400. unfold Model.post. cbn [b_action].
    apply (if_case (fun r => r = _)); [intros E%String.eqb_eq; contradiction|intros _]. now rewrite V.
  Qed.

  Theorem refused_unknown_action : forall a id b act,
    b_action b = Some act -> known_action act = false -> post a id b = (400, a, []).
  Proof.
    intros a id [o v rq st p] act [= ->] K. unfold known_action in K. cbn [existsb] in K.
    repeat (apply orb_false_iff in K; destruct K as [? K]).
    (* each of the eight comparisons of `post` is one of those of `known_action`, and false *)
    change 400 with c400. unfold Model.post. cbn [b_action].
    apply (if_case (fun r => r = _)); [intros E; exfalso; congruence|intros _].
    apply (opt_case (fun r => r = _)); [intros loc _|reflexivity].
    repeat (apply (if_case (fun r => r = _)); [intros E; exfalso; congruence|intros _]). reflexivity.
  Qed.

  (* when the DAG's process does not answer, the guards see the recorded status, and that one has been through
     `correct`: it is never "running" *)
  Lemma latest_unresponsive : forall a loc rq,
    live_get loc (a_live a) = Some (rq, st_timeout) -> latest_status a loc <> st_running.
  Proof.
    intros a loc rq HL. unfold latest_status. rewrite HL. simpl.
    destruct (latest_run (h_get loc (w_hist (a_w a)))) as [r|]; [|discriminate].
    destruct (last_line r) as [s|]; [|discriminate].
    unfold correct. destruct (Nat.eqb_spec (s_st s) st_running); simpl; [discriminate|assumption].
  Qed.

  Theorem start_running : forall a id b loc,
    b_action b = Some "start" -> view (a_w a) id = Some loc -> latest_status a loc = st_running ->
    post a id b = (400, a, []).
  Proof. intros. rewrite post_start by auto. now rewrite H0, H1. Qed.

  Theorem start_accepted : forall a id b loc,
    b_action b = Some "start" -> view (a_w a) id = Some loc -> latest_status a loc <> st_running ->
    post a id b = (200, a, spawn (start_argv (b_params b) loc)).
  Proof.
    intros. rewrite post_start by auto. rewrite H0.
    apply Nat.eqb_neq in H1. now rewrite H1.
  Qed.

  Definition mark_ready (a : aworld) (loc : string) (b : body) : Prop :=
    b_reqid b <> "" /\ b_step b <> "" /\ latest_status a loc <> st_running.

  (* run i (= r, last status s) carries the request id, has the step at j, and UpdateStatus lets it be edited *)
  Definition mark_edit (a : aworld) (loc : string) (b : body) (to i : nat) (r : run) (s : status) (j : nat) : Prop :=
    let rs := h_get loc (w_hist (a_w a)) in
    let s1 := if addressed_live a loc (b_reqid b) then s else correct s in
    pick_idx (b_reqid b) rs = Some i /\ nth_error rs i = Some r /\ last_line r = Some s /\
    last_node_idx (b_step b) (s_nodes s1) = Some j /\
    update_refused a loc (s_req (set_node j to s1)) = false.

  Definition edited (a : aworld) (loc : string) (b : body) (to i : nat) (s : status) (j : nat) : aworld :=
    let rs := h_get loc (w_hist (a_w a)) in
    let s1 := if addressed_live a loc (b_reqid b) then s else correct s in
    set_world a (set_hist (a_w a) (h_set loc (upd_nth i (append_line (set_node j to s1)) rs) (w_hist (a_w a)))).

  Lemma edited_hist : forall a loc b to i s j l,
    h_get l (w_hist (a_w (edited a loc b to i s j))) =
    if String.eqb loc l
    then upd_nth i (append_line (set_node j to (if addressed_live a loc (b_reqid b) then s else correct s)))
                 (h_get loc (w_hist (a_w a)))
    else h_get l (w_hist (a_w a)).
  Proof. intros. unfold edited. simpl. apply h_get_set. Qed.

  Lemma mark_inv : forall a loc b to (P : nat * aworld * list event -> Prop),
    (forall c, c <> c200 -> c = c400 \/ mark_ready a loc b -> P (c, a, [])) ->
    (forall i r s j, mark_ready a loc b -> mark_edit a loc b to i r s j -> P (c200, edited a loc b to i s j, [])) ->
    P (mark a loc b to).
  Proof.
    intros a loc b to P F S.
    assert (F4 : P (c400, a, [])) by (apply F; [discriminate|now left]).
    unfold Model.mark. cbv zeta.
    apply if_case; [intros _; exact F4|intros N1%String.eqb_neq].
    apply if_case; [intros _; exact F4|intros N2%String.eqb_neq].
    apply if_case; [intros _; exact F4|intros N3%Nat.eqb_neq].
    assert (R : mark_ready a loc b) by (repeat split; assumption).
    assert (F5 : P (c500, a, [])) by (apply F; [discriminate|now right]).
    apply opt_case; [intros i PI|intros _; exact F5].
    apply opt_case; [intros r N|intros _; exact F5].
    apply opt_case; [intros s LL|intros _; exact F5].
    apply opt_case; [intros j LN|intros _; exact F4].
    apply if_case; [intros _; exact F5|intros U].
    apply (S i r s j R). repeat split; assumption.
  Qed.

  Lemma mark_running : forall a loc b to, latest_status a loc = st_running -> mark a loc b to = (c400, a, []).
  Proof.
    intros a loc b to H. apply mark_inv.
    - intros c _ [->|(_ & _ & N)]; [reflexivity|contradiction].
    - intros i r s j (_ & _ & N). contradiction.
  Qed.

  Lemma mark_malformed : forall a loc b to, b_reqid b = "" \/ b_step b = "" -> mark a loc b to = (c400, a, []).
  Proof.
    intros a loc b to H. apply mark_inv.
    - intros c _ [->|(N1 & N2 & _)]; [reflexivity|tauto].
    - intros i r s j (N1 & N2 & _). tauto.
  Qed.

  Lemma mark_quiet : forall X a loc b to, quiet X a (mark a loc b to).
  Proof. intros. apply mark_inv; auto. Qed.

  Lemma relabel_fields : forall (live : bool) s, let s1 := if live then s else correct s in
    s_req s1 = s_req s /\ s_nodes s1 = s_nodes s /\
    s_st s1 = if Nat.eqb (s_st s) st_running && negb live then st_error else s_st s.
  Proof.
    intros [|] s; simpl; [now rewrite andb_false_r|]. rewrite andb_true_r.
    unfold correct. now destruct (Nat.eqb (s_st s) st_running).
  Qed.

  Lemma run_has_req_last : forall rq r, run_has_req rq r = true -> exists s, last_line r = Some s /\ s_req s = rq.
  Proof.
    unfold run_has_req. intros. destruct (last_line r) as [s|]; [|discriminate].
    apply String.eqb_eq in H. eauto.
  Qed.

  Lemma post_mark_refused : forall a id b act loc,
    b_action b = Some act -> is_mark act -> view (a_w a) id = Some loc ->
    (forall i r s j, ~ mark_edit a loc b (mark_target act) i r s j) ->
    exists c, c <> c200 /\ post a id b = (c, a, []).
  Proof.
    intros a id b act loc H M V N. rewrite (post_mark _ _ _ _ H M), V. apply mark_inv.
    - intros c C _. eauto.
    - intros i r s j _ E. destruct (N _ _ _ _ E).
  Qed.

  Lemma escape_nul : forall p, has_char ch_nul (escape_arg p) = has_char ch_nul p.
  Proof.
    induction p as [|c r IH]; [reflexivity|]. rewrite escape_cons, has_char_cons.
    destruct (Ascii.eqb_spec c ch_cr) as [->|_]; [|destruct (Ascii.eqb_spec c ch_lf) as [->|_]];
      now rewrite !has_char_cons, IH.
  Qed.

  Lemma nul_in_quote : forall s, has_char ch_nul (quote s) = has_char ch_nul s.
  Proof.
    intros. unfold quote. simpl. rewrite has_char_app. simpl. now rewrite !orb_false_r.
  Qed.

  Lemma spawnable_start : forall p loc,
    spawnable (start_argv p loc) = negb (has_char ch_nul p) && negb (has_char ch_nul loc).
  Proof.
    intros. unfold spawnable, start_argv.
    destruct (String.eqb_spec p "") as [->|_]; cbn [app existsb];
      rewrite ?nul_in_quote, ?escape_nul, orb_false_r, <- negb_orb; reflexivity.
  Qed.

  Theorem refused_save_invalid : forall a id b,
    b_action b = Some "save" -> valid (b_value b) = false -> post a id b = (500, a, []).
  Proof.
    intros. rewrite post_save by auto. unfold by_step.
    rewrite (save_invalid valid meta_ok dir (a_w a) id (b_value b) H0). simpl. now rewrite set_world_id.
  Qed.

  Theorem create_refused_unchanged : forall tmpl a v,
    fs_get (file_loc dir v) (w_defs (a_w a)) <> None ->
    create valid meta_ok dir tmpl a (Some "new") (Some v) = (500, a).
  Proof.
    intros. unfold create. simpl String.eqb. cbv iota.
    rewrite (create_fresh valid meta_ok dir (a_w a) v tmpl H). simpl. now rewrite set_world_id.
  Qed.

  Hypothesis dir_abs : is_abs dir = true.

  (* C20_refused_nothing in terms of `quiet` (for every action since fe0ec16); X = a retry whose process fails has
     been started: 500 *)
  Theorem post_quiet : forall a id b,
    (b_action b = Some "rename" -> has_slash id = false /\ has_slash (b_value b) = false) ->
    quiet (b_action b = Some "retry" /\ b_reqid b <> "" /\ retry_ok = false) a (post a id b).
  Proof.
    intros a id b HR. destruct (b_action b) as [act|] eqn:HA; [|rewrite refused_missing_action; auto].
    destruct (known_action act) eqn:K; [|rewrite (refused_unknown_action _ _ _ _ HA K); auto].
    apply existsb_exists in K. destruct K as (s & I & E). apply String.eqb_eq in E. subst s.
    simpl in I. destruct I as [<-|[<-|[<-|[<-|[<-|[<-|[<-|[<-|[]]]]]]]]].
    - rewrite post_start by auto. destruct (view (a_w a) id); auto. destruct (Nat.eqb _ _); auto.
    - rewrite post_suspend by auto. destruct (view (a_w a) id); auto. destruct (step _ _ _ _ _) as [[w' r] out]; auto.
    - rewrite post_stop by auto. destruct (view (a_w a) id); auto. destruct (negb _); auto.
      destruct (live_get _ _); auto.
    - rewrite post_retry by auto. destruct (view (a_w a) id); auto.
      destruct (String.eqb_spec (b_reqid b) ""); auto. destruct retry_ok; auto.
      (* the one refusal after which something has been started *)
      intros _. auto.
    - rewrite (post_mark _ _ _ "mark-success") by (auto; now left).
      destruct (view (a_w a) id); auto using mark_quiet.
    - rewrite (post_mark _ _ _ "mark-failed") by (auto; now right).
      destruct (view (a_w a) id); auto using mark_quiet.
    - rewrite post_save by auto. apply by_step_quiet. now apply step_failed_unchanged.
    - rewrite post_rename by auto. destruct (view (a_w a) id); auto. destruct (String.eqb _ _); auto.
      apply by_step_quiet. apply step_failed_unchanged; [exact dir_abs|exact (HR eq_refl)].
  Qed.

End Proofs.

Definition ok_all (_ : bytes) : bool := true.

(* DAG a: an older failed run ro, a current run rc; ab: a neighbour with one run *)
Definition hist_ex (cur : list status) : hist :=
  [("/d/a.yaml", [mkRun 1000 [mkStatus "ro" 2 [mkNode "s1" 2; mkNode "s2" 0]]; mkRun 2000 cur]);
   ("/d/ab.yaml", [mkRun 5000 [mkStatus "rn" 2 [mkNode "s1" 4; mkNode "s2" 2]]])].
Definition world_ex (cur : list status) : world :=
  mkW [("/d/a.yaml", "T1"); ("/d/ab.yaml", "T1")] (hist_ex cur) ["ab.suspend"].
Definition a_running : aworld :=
  mkA (world_ex [mkStatus "rc" 1 [mkNode "s1" 1; mkNode "s2" 0]]) [("/d/a.yaml", ("rc", 1))].
Definition a_crashed : aworld :=
  mkA (world_ex [mkStatus "rc" 1 [mkNode "s1" 4; mkNode "s2" 1]]) [].
Definition a_failed : aworld :=
  mkA (world_ex [mkStatus "rc" 1 [mkNode "s1" 1; mkNode "s2" 0]; mkStatus "rc" 2 [mkNode "s1" 4; mkNode "s2" 2]]) [].
Definition a_unresponsive : aworld :=
  mkA (world_ex [mkStatus "rc" 1 [mkNode "s1" 1; mkNode "s2" 0]]) [("/d/a.yaml", ("", st_timeout))].
Definition bd (act rq stp p : string) : body := mkBody (Some act) "" rq stp p.

Example ex_unresponsive :
  latest_status a_unresponsive "/d/a.yaml" = 2%nat /\
  post ok_all ok_all ok_all "/d" true a_unresponsive "a" (bd "mark-success" "rc" "s1" "") = (500, a_unresponsive, []) /\
  post ok_all ok_all ok_all "/d" true a_unresponsive "a" (bd "mark-failed" "ro" "s2" "") = (500, a_unresponsive, []) /\
  post ok_all ok_all ok_all "/d" true a_unresponsive "a" (bd "stop" "" "" "") = (400, a_unresponsive, []).
Proof. repeat split; reflexivity. Qed.

Example ex_guards :
  post ok_all ok_all ok_all "/d" true a_running "a" (bd "start" "" "" "p") = (400, a_running, []) /\
  post ok_all ok_all ok_all "/d" true a_failed "a" (bd "stop" "" "" "") = (400, a_failed, []) /\
  post ok_all ok_all ok_all "/d" true a_running "a" (bd "mark-success" "rc" "s1" "") = (400, a_running, []) /\
  post ok_all ok_all ok_all "/d" true a_running "a" (bd "stop" "" "" "") = (200, a_running, [EStop "/d/a.yaml"]) /\
  view ok_all ok_all "/d" (a_w a_running) "a" = Some "/d/a.yaml" /\ latest_status a_running "/d/a.yaml" = st_running /\
  latest_status a_failed "/d/a.yaml" = 2%nat /\ latest_status a_crashed "/d/a.yaml" = 2%nat.
Proof. repeat split; reflexivity. Qed.

Example ex_mark_exact :
  post ok_all ok_all ok_all "/d" true a_crashed "a" (bd "mark-success" "rc" "s2" "") =
    (200, mkA (world_ex [mkStatus "rc" 1 [mkNode "s1" 4; mkNode "s2" 1]; mkStatus "rc" 2 [mkNode "s1" 4; mkNode "s2" 4]]) [], []) /\
  post ok_all ok_all ok_all "/d" true a_failed "a" (bd "mark-failed" "ro" "s2" "") =
    (200, mkA (mkW [("/d/a.yaml", "T1"); ("/d/ab.yaml", "T1")]
               [("/d/a.yaml", [mkRun 1000 [mkStatus "ro" 2 [mkNode "s1" 2; mkNode "s2" 0]; mkStatus "ro" 2 [mkNode "s1" 2; mkNode "s2" 2]];
                               mkRun 2000 [mkStatus "rc" 1 [mkNode "s1" 1; mkNode "s2" 0]; mkStatus "rc" 2 [mkNode "s1" 4; mkNode "s2" 2]]]);
                ("/d/ab.yaml", [mkRun 5000 [mkStatus "rn" 2 [mkNode "s1" 4; mkNode "s2" 2]]])] ["ab.suspend"]) [], []).
Proof. split; reflexivity. Qed.

Example ex_start_params :
  post ok_all ok_all ok_all "/d" true a_failed "a" (bd "start" "" "" "x=1 y") =
    (200, a_failed, [ESpawn ["start"; "-p"; quote "x=1 y"; "/d/a.yaml"]]) /\
  params_safe "x=1 y" = true /\ remove_quotes (quote "x=1 y") = "x=1 y".
Proof. repeat split; reflexivity. Qed.

Example ex_refused :
  post ok_all ok_all ok_all "/d" true a_failed "a" (mkBody None "" "rc" "s1" "") = (400, a_failed, []) /\
  post ok_all ok_all ok_all "/d" true a_failed "a" (bd "frobnicate" "rc" "s1" "") = (400, a_failed, []) /\
  post ok_all ok_all ok_all "/d" true a_failed "a" (bd "mark-success" "" "s1" "") = (400, a_failed, []) /\
  post ok_all ok_all ok_all "/d" true a_failed "a" (bd "mark-success" "rc" "" "") = (400, a_failed, []) /\
  post ok_all ok_all ok_all "/d" true a_failed "a" (bd "mark-success" "rc" "zz" "") = (400, a_failed, []) /\
  post ok_all ok_all ok_all "/d" true a_failed "a" (bd "mark-success" "rn" "s1" "") = (500, a_failed, []) /\
  post ok_all ok_all ok_all "/d" true a_failed "nope" (bd "start" "" "" "") = (400, a_failed, []).
Proof. repeat split; reflexivity. Qed.
