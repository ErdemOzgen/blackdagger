From Coq Require Import List Bool.
Import ListNotations.
From BD.Agent Require Import Run.

(* Every statement below is read off `run`: its gates are tested in a fixed order, so each proof follows the chain of
   `if`s as far as the hypotheses decide it. *)

(* C14: a refused graph does nothing but build the graph *)
Lemma refused_graph_is_silent e : e_gaccept e = false -> run e = ([ABuildGraph], true).
Proof. intros H. unfold run. now rewrite H. Qed.

(* C04: unmet DAG preconditions: no step, handler, probe, history or socket action *)
Lemma unmet_dag_precondition e : e_gaccept e = true -> e_has_pre e = true -> e_pre_ok e = false ->
  run e = ([ABuildGraph; AEvalPre; ACancelAll], true).
Proof. intros H1 H2 H3. unfold run. now rewrite H1, H2, H3. Qed.

(* C03: a dry run never touches history, socket, probe or a real command *)
Lemma dry_run_nothing e : e_dry e = true ->
  let acts := fst (run e) in
  existsb is_hist acts = false /\ existsb is_exec acts = false /\ existsb is_sock acts = false /\ existsb is_probe acts = false.
Proof.
  intros H. unfold run. rewrite H.
  destruct (e_gaccept e), (e_has_pre e), (e_pre_ok e); cbn; auto.
Qed.

(* C16: a start that finds the DAG running performs nothing after the probe *)
Lemma refused_start_is_silent e : e_gaccept e = true -> (e_has_pre e = true -> e_pre_ok e = true) -> e_dry e = false ->
  e_probe_running e = true \/ e_probe_timeout e = true ->
  let acts := fst (run e) in
  snd (run e) = true /\ existsb is_hist acts = false /\ existsb is_sched acts = false /\ existsb is_sock acts = false
  /\ last acts ABuildGraph = AProbe.
Proof.
  intros H1 H2 H3 H4. unfold run. rewrite H1, H3.
  assert (E : e_probe_timeout e || e_probe_running e = true) by (destruct H4 as [-> | ->]; auto using orb_true_r).
  rewrite E. destruct (e_has_pre e); [rewrite H2 by reflexivity|]; cbn; auto.
Qed.

Lemma hist_after_probe e : existsb is_hist (fst (run e)) = true ->
  e_gaccept e = true /\ e_dry e = false /\ e_probe_running e = false /\ e_probe_timeout e = false.
Proof.
  unfold run.
  destruct (e_gaccept e); [|discriminate]. destruct (e_has_pre e), (e_pre_ok e); try discriminate;
  (destruct (e_dry e); [discriminate|]); destruct (e_probe_timeout e), (e_probe_running e); try discriminate; auto.
Qed.

Lemma exec_needs_everything e : existsb is_exec (fst (run e)) = true ->
  e_gaccept e = true /\ (e_has_pre e = true -> e_pre_ok e = true) /\ e_dry e = false /\ e_probe_running e = false
  /\ e_probe_timeout e = false /\ e_open_ok e = true /\ e_bind_ok e = true.
Proof.
  unfold run.
  destruct (e_gaccept e); [|discriminate]. destruct (e_has_pre e), (e_pre_ok e); try discriminate;
  (destruct (e_dry e); [discriminate|]); destruct (e_probe_timeout e), (e_probe_running e); try discriminate;
  destruct (e_open_ok e), (e_bind_ok e); try discriminate; repeat split; auto.
Qed.

(* For C10's clause that a retry is recorded as a new run (no property theorem is closed by these): a retry differs
   from a start only in how the graph is built, so its actions are `run e` too; `act` has no action that updates an
   existing history file, and the history actions of a run are one of four shapes around ONE AOpenHist - the file
   this very run opens - with nothing before the open but the retention clean-up. *)
Definition hist_shapes : list (list act) :=
  [ []; [ARemoveOld; AOpenHist]; [ARemoveOld; AOpenHist; AWriteStatus; ACloseHist];
    [ARemoveOld; AOpenHist; AWriteStatus; AWriteFinal; ACloseHist] ].
Lemma hist_actions_shape e : In (filter is_hist (fst (run e))) hist_shapes.
Proof.
  unfold run.
  destruct (e_gaccept e); [|now left]. destruct (e_has_pre e), (e_pre_ok e); try (now left);
  (destruct (e_dry e); [now left|]); destruct (e_probe_timeout e), (e_probe_running e); try (now left);
  destruct (e_open_ok e), (e_bind_ok e); cbn; auto.
Qed.
Example retry_records_a_new_run :
  filter is_hist (fst (run {| e_gaccept := true; e_has_pre := false; e_pre_ok := false; e_dry := false; e_probe_timeout := false;
                              e_probe_running := false; e_open_ok := true; e_bind_ok := true |}))
  = [ARemoveOld; AOpenHist; AWriteStatus; AWriteFinal; ACloseHist].
Proof. reflexivity. Qed.
