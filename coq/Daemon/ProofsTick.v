(* One tick of the daemon: the multiset of client calls equals the guard formula (C09_start_iff / stop_iff /
   restart_iff).  Sorting by Next and stopping at the first entry after the tick is a filter. *)
From Coq Require Import List Bool Arith ZArith Lia String Permutation.
Import ListNotations.
From BD.Cron Require Import Model Schedule ProofsNext.
From BD.Daemon Require Import Model.
Local Open Scope Z_scope.

Lemma filter_flat_map : forall {A B} (p : B -> bool) (g : A -> list B) l,
  filter p (flat_map g l) = flat_map (fun x => filter p (g x)) l.
Proof. intros. induction l as [|x l IH]; simpl; [reflexivity|]. rewrite filter_app, IH. reflexivity. Qed.

Lemma flat_map_flat_map : forall {A B C} (f : B -> list C) (g : A -> list B) l,
  flat_map f (flat_map g l) = flat_map (fun x => flat_map f (g x)) l.
Proof. intros. induction l as [|x l IH]; simpl; [reflexivity|]. rewrite flat_map_app, IH. reflexivity. Qed.

Definition due_entry (m : Z) (e : entry) : bool := match e_next e with Some n => n <=? m | None => false end.

(* Inserting e in its place - behind the entries with a smaller Next, the zero time being smallest - adds e to what
   the loop reaches if e is due (everything before it is then due or zero) and nothing otherwise (the loop stops at
   e, or already stopped at an entry that is not later than the one e was put before).  Since the calls are only
   counted, which is invariant under permutation, this is all that is needed of the sort: no sortedness of l. *)
Lemma take_due_insert : forall m e l,
  Permutation (take_due m (insert_entry e l)) ((if due_entry m e then [e] else []) ++ take_due m l).
Proof.
  intros m e l. unfold due_entry. induction l as [|x l IH]; cbn [insert_entry].
  - cbn [take_due]. destruct (e_next e) as [n|]; [|reflexivity].
    destruct (Z.ltb_spec m n), (Z.leb_spec n m); try lia; reflexivity.
  - destruct (next_leb (e_next e) (e_next x)) eqn:E.
    + cbn [take_due]. destruct (e_next e) as [n|]; [|reflexivity].
      destruct (Z.ltb_spec m n), (Z.leb_spec n m); try lia; [|reflexivity].
      destruct (e_next x) as [y|]; [|discriminate]. simpl in E. apply Z.leb_le in E.
      destruct (Z.ltb_spec m y); [reflexivity | lia].
    + cbn [take_due]. destruct (e_next x) as [y|]; [|exact IH].
      destruct (e_next e) as [n|]; [|discriminate]. simpl in E. apply Z.leb_gt in E.
      destruct (Z.ltb_spec m y).
      * destruct (Z.leb_spec n m); [lia | reflexivity].
      * rewrite IH. apply Permutation_middle.
Qed.

Lemma take_due_sort : forall m l, Permutation (take_due m (sort_entries l)) (filter (due_entry m) l).
Proof.
  intros m l. induction l as [|e l IH]; cbn [sort_entries filter]; [reflexivity|].
  rewrite take_due_insert, IH. destruct (due_entry m e); reflexivity.
Qed.

Definition all_calls (s : state) (m : Z) : list call :=
  flat_map (invoke s) (filter (due_entry m) (read_entries s (60 * m - 1))).

Theorem tick_calls_perm : forall s m, alive s = true -> Permutation (tick_calls s m) (all_calls s m).
Proof.
  intros s m Ha. unfold tick_calls, all_calls. rewrite Ha. apply Permutation_flat_map, take_due_sort.
Qed.

Definition call_eq_dec : forall a b : call, {a = b} + {a <> b}.
Proof. decide equality; apply string_dec. Defined.

Definition count (c : call) (l : list call) : nat := count_occ call_eq_dec l c.

Lemma count_app : forall c l1 l2, count c (l1 ++ l2) = (count c l1 + count c l2)%nat.
Proof. intros. unfold count. apply count_occ_app. Qed.

Lemma count_perm : forall c l l', Permutation l l' -> count c l = count c l'.
Proof. intros c l l' H. unfold count. apply (proj1 (Permutation_count_occ call_eq_dec l l') H). Qed.

Lemma count_zero : forall c l, (forall x, In x l -> x <> c) -> count c l = 0%nat.
Proof. intros c l H. unfold count. apply count_occ_not_In. intro Hin. apply (H c Hin). reflexivity. Qed.

Lemma count_pos_in : forall c l, (0 < count c l)%nat <-> In c l.
Proof. intros. unfold count. symmetry. apply count_occ_In. Qed.

(* the guards of job.go *)
Definition start_guard (st : status) (n : Z) : bool :=
  negb (st_err st) && negb (st_run st) && match st_last st with Some l => l <? n | None => true end.
Definition stop_guard (st : status) : bool := negb (st_err st) && st_run st.

(* One entry per file and kind: its Next, the earliest among the schedules of the kind, is due at m iff some schedule
   of the kind fires at m.  `opt_ge m` holds of every accumulator because every `next sp (60 * m - 1)` is >= m: the
   search for the next activation starts at minute m. *)
Definition hit (m : Z) (sps : list spec) : bool := existsb (fun sp => matches sp m) sps.
Definition opt_due (m : Z) (o : option Z) : bool := match o with Some n => n <=? m | None => false end.
Definition opt_ge (m : Z) (o : option Z) : Prop := match o with Some a => m <= a | None => True end.

Lemma earlier_spec : forall m sp acc, opt_ge m acc ->
  opt_ge m (earlier acc (next sp (60 * m - 1))) /\
  opt_due m (earlier acc (next sp (60 * m - 1))) = opt_due m acc || matches sp m.
Proof.
  intros m sp acc Hge. destruct (next sp (60 * m - 1)) as [n|] eqn:E; cbn [earlier].
  - destruct (next_some _ _ _ E) as (Hn & _ & _). rewrite next_lo_tick in Hn.
    assert (Hm : matches sp m = (n <=? m)) by (rewrite <- due_matches; unfold due; rewrite E; reflexivity).
    rewrite Hm. destruct acc as [a|]; cbn [opt_ge opt_due] in *.
    + destruct (Z.ltb_spec n a); cbn [opt_ge opt_due]; (split; [lia|]);
        destruct (Z.leb_spec n m), (Z.leb_spec a m); try reflexivity; lia.
    + split; [lia | reflexivity].
  - destruct (due_of_none sp m E) as [_ ->]. rewrite orb_false_r. split; [assumption | reflexivity].
Qed.

Lemma earliest_spec : forall m sps acc, opt_ge m acc ->
  opt_ge m (earliest (60 * m - 1) sps acc) /\
  opt_due m (earliest (60 * m - 1) sps acc) = opt_due m acc || hit m sps.
Proof.
  intros m. induction sps as [|sp sps IH]; intros acc Hge; cbn [earliest hit existsb].
  - rewrite orb_false_r. split; [assumption | reflexivity].
  - destruct (earlier_spec m sp acc Hge) as [Hge' Hd']. destruct (IH _ Hge') as [Hge2 Hd2].
    split; [assumption|]. unfold hit in Hd2. rewrite Hd2, Hd', orb_assoc. reflexivity.
Qed.

Definition kind_calls (s : state) (m : Z) (k : skind) (f : string) (sps : list spec) : list call :=
  flat_map (invoke s) (filter (due_entry m) (kind_entry (60 * m - 1) k f sps)).

Lemma kind_calls_eq : forall s m k f sps,
  kind_calls s m k f sps = if hit m sps then invoke s {| e_next := Some m; e_kind := k; e_file := f |} else [].
Proof.
  intros. unfold kind_calls, kind_entry. destruct (earliest_spec m sps None I) as [Hge Hd]. cbn [opt_due orb] in Hd.
  destruct (earliest (60 * m - 1) sps None) as [n|]; cbn [opt_due opt_ge filter flat_map] in *.
  - unfold due_entry. cbn [e_next]. rewrite Hd. destruct (hit m sps); [|reflexivity].
    apply Z.leb_le in Hd. assert (n = m) by lia. subst. cbn [flat_map]. apply app_nil_r.
  - rewrite <- Hd. reflexivity.
Qed.

Lemma count_single : forall c d, count c [d] = if call_eq_dec c d then 1%nat else 0%nat.
Proof.
  intros. unfold count. cbn [count_occ]. destruct (call_eq_dec d c), (call_eq_dec c d); congruence.
Qed.

Definition b2n (b : bool) : nat := if b then 1%nat else 0%nat.

Definition kcall (k : skind) (f : string) : call :=
  match k with KStart => CStart f | KStop => CStop f | KRestart => CRestart f end.
Definition kguard (s : state) (m : Z) (k : skind) (f : string) : bool :=
  match k with
  | KStart => start_guard (status_of s f) m
  | KStop => stop_guard (status_of s f)
  | KRestart => true
  end.

Lemma invoke_kind : forall s m k f,
  invoke s {| e_next := Some m; e_kind := k; e_file := f |} = if kguard s m k f then [kcall k f] else [].
Proof.
  intros s m k f. unfold invoke, kguard, start_guard, stop_guard. destruct k; cbn [e_kind e_file e_next kcall].
  - destruct (st_err _); [reflexivity|]. destruct (st_run _); [reflexivity|]. destruct (st_last _) as [l|]; [|reflexivity].
    (* errJobFinished is `Next <= last`, the guard says `last < Next` *)
    simpl. destruct (Z.leb_spec m l), (Z.ltb_spec l m); try reflexivity; lia.
  - destruct (st_err _); [reflexivity|]. destruct (st_run _); reflexivity.
  - reflexivity.
Qed.

Lemma kind_calls_count : forall s m k f sps c,
  count c (kind_calls s m k f sps) =
  if call_eq_dec c (kcall k f) then b2n (hit m sps && kguard s m k f) else 0%nat.
Proof.
  intros. rewrite kind_calls_eq, invoke_kind.
  destruct (hit m sps), (kguard s m k f); cbn [andb b2n]; try apply count_single;
    destruct (call_eq_dec c (kcall k f)); reflexivity.
Qed.

Definition file_calls (s : state) (m : Z) (f : string) (e : sched3) : list call :=
  flat_map (invoke s) (filter (due_entry m) (entries_of (60 * m - 1) f e)).

Lemma file_calls_split : forall s m f e,
  file_calls s m f e = kind_calls s m KStart f (starts e) ++ kind_calls s m KStop f (stops e) ++ kind_calls s m KRestart f (restarts e).
Proof. intros. unfold file_calls, entries_of, kind_calls. rewrite !filter_app, !flat_map_app. reflexivity. Qed.

Definition file_count (s : state) (m : Z) (f : string) (e : sched3) (c : call) : nat :=
  match c with
  | CStart g => if String.eqb g f then b2n (hit m (starts e) && start_guard (status_of s f) m) else 0
  | CStop g => if String.eqb g f then b2n (hit m (stops e) && stop_guard (status_of s f)) else 0
  | CRestart g => if String.eqb g f then b2n (hit m (restarts e)) else 0
  end%nat.

Lemma dec_if_same : forall c {A} (a b : A), (if call_eq_dec c c then a else b) = a.
Proof. intros. destruct (call_eq_dec c c); congruence. Qed.
Lemma dec_if_diff : forall c d {A} (a b : A), c <> d -> (if call_eq_dec c d then a else b) = b.
Proof. intros. destruct (call_eq_dec c d); congruence. Qed.

Lemma file_calls_count : forall s m f e c, count c (file_calls s m f e) = file_count s m f e c.
Proof.
  intros. rewrite file_calls_split, !count_app, !kind_calls_count. unfold file_count. cbn [kcall kguard].
  destruct c as [g|g|g]; (destruct (String.eqb g f) eqn:Eg;
    [apply String.eqb_eq in Eg; subst g; rewrite dec_if_same, !dec_if_diff, ?andb_true_r by discriminate; lia
    |apply String.eqb_neq in Eg; rewrite !dec_if_diff by congruence; reflexivity]).
Qed.

Lemma file_count_le1 : forall s m f e c, (file_count s m f e c <= 1)%nat.
Proof. intros. unfold file_count, b2n. destruct c; destruct (String.eqb _ _); try lia; destruct (_ && _) || destruct (hit _ _); lia. Qed.

Lemma all_calls_files : forall s m,
  all_calls s m = flat_map (fun fe => if mem (fst fe) (susp s) then [] else file_calls s m (fst fe) (snd fe)) (tbl s).
Proof.
  intros. unfold all_calls, read_entries. rewrite filter_flat_map, flat_map_flat_map.
  apply flat_map_ext. intros [f e]. simpl. destruct (mem f (susp s)); reflexivity.
Qed.

Lemma lookup_in : forall {V} k (l : list (string * V)) v, lookup k l = Some v -> In (k, v) l.
Proof.
  intros V k l v. induction l as [|[k' v'] l IH]; simpl; [discriminate|].
  destruct (String.eqb k' k) eqn:E; intro H.
  - apply String.eqb_eq in E. injection H as ->. subst. left. reflexivity.
  - right. apply IH. assumption.
Qed.

Lemma lookup_notin : forall {V} k (l : list (string * V)), ~ In k (map fst l) -> lookup k l = None.
Proof.
  intros V k l H. destruct (lookup k l) eqn:E; [|reflexivity].
  elim H. apply lookup_in in E. exact (in_map fst _ _ E).
Qed.

Lemma lookup_none_notin : forall {V} k (l : list (string * V)), lookup k l = None -> ~ In k (map fst l).
Proof.
  intros V k l. induction l as [|[k' v'] l IH]; simpl; [tauto|].
  destruct (String.eqb k' k) eqn:E; intro H; [discriminate|].
  apply String.eqb_neq in E. intros [H1|H1]; [congruence | apply (IH H); assumption].
Qed.

(* the keys of the table are distinct, so only the row of c's own file contributes *)
Lemma count_files : forall s m c (t : list (string * sched3)), NoDup (map fst t) ->
  count c (flat_map (fun fe => if mem (fst fe) (susp s) then [] else file_calls s m (fst fe) (snd fe)) t) =
  match lookup (call_file c) t with
  | Some e => if mem (call_file c) (susp s) then 0%nat else file_count s m (call_file c) e c
  | None => 0%nat
  end.
Proof.
  intros s m c t. induction t as [|[f e] t IH]; intro Hnd; simpl; [reflexivity|].
  inversion Hnd as [|? ? Hnotin Hnd']; subst. rewrite count_app, (IH Hnd').
  destruct (String.eqb f (call_file c)) eqn:E.
  - apply String.eqb_eq in E. subst f. rewrite (lookup_notin _ _ Hnotin).
    destruct (mem (call_file c) (susp s)); [reflexivity|]. rewrite file_calls_count. lia.
  - replace (count c (if mem f (susp s) then [] else file_calls s m f e)) with 0%nat; [reflexivity|].
    destruct (mem f (susp s)); [reflexivity|]. rewrite file_calls_count.
    unfold file_count. apply String.eqb_neq in E.
    destruct c as [g|g|g]; simpl in E; destruct (String.eqb g f) eqn:Eg; try reflexivity;
      apply String.eqb_eq in Eg; congruence.
Qed.

(* C09_tick_count: per DAG file and kind of call, one call if some schedule of that kind fires at m and job.go's guard
   passes, else none - whatever the schedules *)
Theorem tick_count : forall s m c, NoDup (map fst (tbl s)) ->
  count c (tick_calls s m) =
  if alive s then
    match lookup (call_file c) (tbl s) with
    | Some e => if mem (call_file c) (susp s) then 0%nat else file_count s m (call_file c) e c
    | None => 0%nat
    end
  else 0%nat.
Proof.
  intros s m c Hnd. destruct (alive s) eqn:Ha.
  - rewrite (count_perm _ _ _ (tick_calls_perm s m Ha)), all_calls_files. apply count_files. assumption.
  - unfold tick_calls. rewrite Ha. reflexivity.
Qed.
