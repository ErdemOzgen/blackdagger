(* C09 over histories: invariants of `step`, C09_no_miss, C09_no_double, C09_bad_file - for EVERY list of
   operations (ticks with arbitrary minutes and wall-clock lag, history changes, suspend, file writes / removals /
   renames seen by the watcher, daemon restarts), by induction on the list. *)
From Coq Require Import List Bool Arith ZArith Lia String Permutation.
Import ListNotations.
From BD.Cron Require Import Model Schedule ProofsNext ProofsSched.
From BD.Daemon Require Import Model ProofsTick Proofs.
Local Open Scope Z_scope.

(* the daemon's table follows the directory: a file of the directory that loads has its loaded entry in the table *)
Definition sync1 (s : state) (f : string) : Prop :=
  forall c e, lookup f (dir s) = Some c -> load f c = FOk e -> lookup f (tbl s) = Some e.

Record Inv (s : state) : Prop := {
  inv_tbl : NoDup (map fst (tbl s));
  inv_dir : NoDup (map fst (dir s));
  inv_sync : alive s = true -> forall f, sync1 s f
}.

Lemma scan_lookup : forall d acc t, NoDup (map fst d) -> scan d acc = Some t ->
  forall f, lookup f t = match lookup f d with
                         | Some c => match load f c with FOk e => Some e | _ => lookup f acc end
                         | None => lookup f acc
                         end.
Proof.
  induction d as [|[f0 c0] d IH]; intros acc t Hnd Hs f; simpl in *.
  - injection Hs as <-. reflexivity.
  - inversion Hnd as [|? ? Hnotin Hnd']; subst.
    pose proof (lookup_notin _ _ Hnotin) as Hl0.
    destruct (String.eqb f0 f) eqn:Ef.
    + apply String.eqb_eq in Ef. subst f.
      destruct (load f0 c0) eqn:El; try discriminate;
        try (rewrite (IH _ _ Hnd' Hs f0), Hl0; reflexivity).
      rewrite (IH _ _ Hnd' Hs f0), Hl0. apply lookup_upsert_same.
    + apply String.eqb_neq in Ef.
      destruct (load f0 c0) eqn:El; try discriminate; try (apply (IH _ _ Hnd' Hs f)).
      rewrite (IH _ _ Hnd' Hs f). rewrite lookup_upsert_other by assumption. reflexivity.
Qed.

Lemma scan_nodup : forall d acc t, NoDup (map fst acc) -> scan d acc = Some t -> NoDup (map fst t).
Proof.
  induction d as [|[f0 c0] d IH]; intros acc t Hacc Hs; simpl in *.
  - injection Hs as <-. assumption.
  - destruct (load f0 c0); try discriminate; try (eapply IH; eassumption).
    eapply IH; [|eassumption]. apply nodup_upsert. assumption.
Qed.

Definition panics (f : string) (c : content) : bool := match load f c with FPanic => true | _ => false end.

Lemma scan_some : forall d acc, (forall f c, In (f, c) d -> panics f c = false) -> scan d acc <> None.
Proof.
  induction d as [|[f0 c0] d IH]; intros acc H; simpl; [discriminate|].
  pose proof (H f0 c0 (or_introl eq_refl)) as H0. unfold panics in H0.
  destruct (load f0 c0); try discriminate; apply IH; intros; apply H; right; assumption.
Qed.

Lemma scan_none : forall d acc f c, In (f, c) d -> panics f c = true -> scan d acc = None.
Proof.
  induction d as [|[f0 c0] d IH]; intros acc f c Hin Hp; simpl; [contradiction|].
  destruct Hin as [E|Hin].
  - injection E as -> ->. unfold panics in Hp. destruct (load f c); try discriminate. reflexivity.
  - destruct (load f0 c0); try reflexivity; eapply IH; eassumption.
Qed.

(* Since the repairs c2912bd / 519d0a6 no content of a DAG file makes the schedule loader panic. *)
Lemma never_panics : forall g c, panics g c = false.
Proof.
  intros g c. unfold panics, load. destruct (negb (ext_ok g)); [reflexivity|]. destruct c as [|v]; [reflexivity|].
  pose proof (build_schedule_no_panic v). destruct (build_schedule v); congruence.
Qed.

Lemma scan_total : forall d acc, exists t, scan d acc = Some t.
Proof.
  intros d acc. destruct (scan d acc) as [t|] eqn:E; [exists t; reflexivity|].
  exfalso. revert E. apply scan_some. intros. apply never_panics.
Qed.

(* the panic branch of on_write is dead (never_panics) *)
Lemma on_write_eq : forall s g c, on_write s g c =
  if alive s then match load g c with FOk e => set_alive_tbl s true (upsert g e (tbl s)) | _ => s end else s.
Proof.
  intros. unfold on_write. destruct (alive s); [|reflexivity].
  pose proof (never_panics g c) as Np. unfold panics in Np. destruct (load g c); try discriminate; reflexivity.
Qed.

Lemma on_write_dir : forall s g c, dir (on_write s g c) = dir s.
Proof. intros. rewrite on_write_eq. destruct (alive s); [destruct (load g c)|]; reflexivity. Qed.
Lemma on_write_hist : forall s g c, hist (on_write s g c) = hist s.
Proof. intros. rewrite on_write_eq. destruct (alive s); [destruct (load g c)|]; reflexivity. Qed.
Lemma on_write_alive : forall s g c, alive (on_write s g c) = alive s.
Proof. intros. rewrite on_write_eq. destruct (alive s) eqn:E; [destruct (load g c)|]; simpl; congruence. Qed.
Lemma on_write_tbl_nodup : forall s g c, NoDup (map fst (tbl s)) -> NoDup (map fst (tbl (on_write s g c))).
Proof.
  intros s g c H. rewrite on_write_eq. destruct (alive s); [destruct (load g c)|]; try exact H.
  apply nodup_upsert. exact H.
Qed.

Lemma on_remove_dir : forall s f, dir (on_remove s f) = dir s.
Proof. intros. unfold on_remove. destruct (alive s && ext_ok f); reflexivity. Qed.
Lemma on_remove_hist : forall s f, hist (on_remove s f) = hist s.
Proof. intros. unfold on_remove. destruct (alive s && ext_ok f); reflexivity. Qed.
Lemma on_remove_dead : forall s f, alive s = false -> on_remove s f = s.
Proof. intros s f H. unfold on_remove. rewrite H. reflexivity. Qed.
Lemma on_remove_alive : forall s f, alive (on_remove s f) = alive s.
Proof. intros. unfold on_remove. destruct (alive s) eqn:E; simpl; [destruct (ext_ok f); simpl; congruence | assumption]. Qed.
Lemma on_remove_tbl_nodup : forall s f, NoDup (map fst (tbl s)) -> NoDup (map fst (tbl (on_remove s f))).
Proof. intros s f H. unfold on_remove. destruct (alive s && ext_ok f); [simpl; apply nodup_remove|]; assumption. Qed.

Lemma step_alive_eq : forall s o, alive (fst (step s o)) = match o with ORestart => true | _ => alive s end.
Proof.
  intros s [m w|f st|f on|f c|f|f g|]; cbn [step fst]; try reflexivity.
  - exact (on_write_alive _ f c).
  - destruct (lookup f (dir s)); cbn [fst]; [exact (on_remove_alive _ f) | reflexivity].
  - destruct (lookup f (dir s)); cbn [fst]; [|reflexivity]. destruct (String.eqb f g); cbn [fst]; [reflexivity|].
    rewrite on_write_alive. exact (on_remove_alive _ f).
  - destruct (scan_total (dir s) []) as [t ->]. reflexivity.
Qed.

Lemma step_hist : forall s o, hist (fst (step s o)) =
  match o with
  | OTick m w => apply_calls (tick_calls s m) w (hist s)
  | OHist f st => upsert f st (hist s)
  | _ => hist s
  end.
Proof.
  intros s [m w|f st|f on|f c|f|f g|]; cbn [step fst]; try reflexivity.
  - exact (on_write_hist _ f c).
  - destruct (lookup f (dir s)); cbn [fst]; [exact (on_remove_hist _ f) | reflexivity].
  - destruct (lookup f (dir s)); cbn [fst]; [|reflexivity]. destruct (String.eqb f g); cbn [fst]; [reflexivity|].
    rewrite on_write_hist. exact (on_remove_hist _ f).
  - destruct (scan (dir s) []); reflexivity.
Qed.

Lemma step_tbl_nodup : forall s o, NoDup (map fst (tbl s)) -> NoDup (map fst (tbl (fst (step s o)))).
Proof.
  intros s o Ht. destruct o as [m w|f st|f on|f c|f|f g|]; cbn [step fst]; try exact Ht.
  - apply on_write_tbl_nodup. exact Ht.
  - destruct (lookup f (dir s)); cbn [fst]; [apply on_remove_tbl_nodup|]; exact Ht.
  - destruct (lookup f (dir s)); cbn [fst]; [|exact Ht]. destruct (String.eqb f g); cbn [fst]; [exact Ht|].
    apply on_write_tbl_nodup, on_remove_tbl_nodup. exact Ht.
  - destruct (scan (dir s) []) eqn:E; simpl; [|constructor]. eapply scan_nodup; [|eassumption]. constructor.
Qed.

Lemma step_dir_nodup : forall s o, NoDup (map fst (dir s)) -> NoDup (map fst (dir (fst (step s o)))).
Proof.
  intros s o Hd. destruct o as [m w|f st|f on|f c|f|f g|]; cbn [step fst]; try exact Hd.
  - rewrite on_write_dir. apply nodup_upsert. exact Hd.
  - destruct (lookup f (dir s)); cbn [fst]; [rewrite on_remove_dir; apply nodup_remove|]; exact Hd.
  - destruct (lookup f (dir s)); cbn [fst]; [|exact Hd]. destruct (String.eqb f g); cbn [fst]; [exact Hd|].
    rewrite on_write_dir, on_remove_dir. apply nodup_upsert, nodup_remove. exact Hd.
  - destruct (scan (dir s) []); exact Hd.
Qed.

Lemma sync1_frame : forall s s' h, tbl s' = tbl s -> lookup h (dir s') = lookup h (dir s) -> sync1 s h -> sync1 s' h.
Proof. intros s s' h Et Ed H c e. rewrite Et, Ed. apply H. Qed.

Lemma on_remove_sync : forall s f, lookup f (dir s) = None ->
  forall h, (h <> f -> sync1 s h) -> sync1 (on_remove s f) h.
Proof.
  intros s f Hf h Hh c e Hd Hl. rewrite on_remove_dir in Hd.
  destruct (string_dec h f) as [->|Hne]; [congruence|]. specialize (Hh Hne c e Hd Hl).
  unfold on_remove. destruct (alive s && ext_ok f); [simpl; rewrite lookup_remove_other by congruence|]; exact Hh.
Qed.

Lemma on_write_sync : forall s g c, alive s = true -> lookup g (dir s) = Some c ->
  forall h, (h <> g -> sync1 s h) -> sync1 (on_write s g c) h.
Proof.
  intros s g c Ha Hg h Hh c' e Hd Hl. rewrite on_write_dir in Hd. rewrite on_write_eq, Ha.
  destruct (string_dec h g) as [->|Hne].
  - rewrite Hg in Hd. injection Hd as <-. rewrite Hl. apply lookup_upsert_same.
  - specialize (Hh Hne c' e Hd Hl). destruct (load g c); try exact Hh.
    simpl. rewrite lookup_upsert_other by congruence. exact Hh.
Qed.

Theorem step_inv : forall s o, Inv s -> Inv (fst (step s o)).
Proof.
  intros s o [Ht Hd Hs]. constructor; [apply step_tbl_nodup; exact Ht | apply step_dir_nodup; exact Hd|].
  rewrite step_alive_eq. destruct o as [m w|f st|f on|f c|f|f g|]; cbn [step fst]; try exact Hs.
  - intros Ha h. apply on_write_sync; [exact Ha | simpl; apply lookup_upsert_same|].
    intro Hne. apply (sync1_frame s); [reflexivity | simpl; apply lookup_upsert_other; congruence | apply Hs, Ha].
  - destruct (lookup f (dir s)); cbn [fst]; [|exact Hs].
    intros Ha h. apply on_remove_sync; [simpl; apply lookup_remove_same|].
    intro Hne. apply (sync1_frame s); [reflexivity | simpl; apply lookup_remove_other; congruence | apply Hs, Ha].
  - (* rename: f is removed, then g written *)
    destruct (lookup f (dir s)) as [c|]; cbn [fst]; [|exact Hs].
    destruct (String.eqb f g) eqn:Efg; cbn [fst]; [exact Hs|]. apply String.eqb_neq in Efg.
    intros Ha h. apply on_write_sync; [rewrite on_remove_alive; exact Ha | rewrite on_remove_dir; simpl; apply lookup_upsert_same|].
    intro Hg. apply on_remove_sync; [simpl; rewrite lookup_upsert_other by congruence; apply lookup_remove_same|].
    intro Hf. apply (sync1_frame s); [reflexivity | | apply Hs, Ha].
    simpl. rewrite lookup_upsert_other, lookup_remove_other by congruence. reflexivity.
  - destruct (scan_total (dir s) []) as [t E]. rewrite E. cbn [fst].
    intros _ f c e Hd' Hl. simpl in Hd' |- *. rewrite (scan_lookup _ _ _ Hd E f), Hd', Hl. reflexivity.
Qed.

Lemma init_inv : forall d, NoDup (map fst d) -> Inv (init_state d).
Proof. intros d H. constructor; simpl; [constructor | assumption | discriminate]. Qed.

Lemma trace_stable : forall P : state -> Prop, (forall s o, P s -> P (fst (step s o))) ->
  forall ops s0, P s0 -> forall s o cs, In (s, o, cs) (trace s0 ops) -> P s /\ cs = snd (step s o).
Proof.
  intros P HP. induction ops as [|o ops IH]; intros s0 H0 s o' cs Hin; simpl in Hin; [contradiction|].
  specialize (HP s0 o H0). destruct (step s0 o) as [s' cs'] eqn:Est. destruct Hin as [E|Hin].
  - injection E as <- <- <-. rewrite Est. split; [assumption | reflexivity].
  - apply (IH s'); assumption.
Qed.

Lemma final_stable : forall P : state -> Prop, (forall s o, P s -> P (fst (step s o))) ->
  forall ops s, P s -> P (final s ops).
Proof. intros P HP. induction ops as [|o ops IH]; intros s H; simpl; [assumption | apply IH, HP; assumption]. Qed.

(* C09_no_miss_alive / _stop / _restart: at a tick of a live daemon every loadable DAG file of the directory - present
   since the start, added or edited meanwhile - whose schedule of kind k matches m and whose guard holds gets its call;
   other files (unloadable ones included) do not matter.  The table entry of such a file is its loaded content (Inv),
   so this is kind_in_iff read from right to left. *)
Theorem no_miss_kind : forall k s0 ops, Inv s0 ->
  forall s m w cs, In (s, OTick m w, cs) (trace s0 ops) -> alive s = true ->
  forall f c e sp, lookup f (dir s) = Some c -> load f c = FOk e -> In sp (ksched k e) -> matches sp m = true ->
  mem f (susp s) = false -> kguard s m k f = true -> In (kcall k f) cs.
Proof.
  intros k s0 ops H0 s m w cs Hin Ha f c e sp Hd Hl Hsp Hm Hsu Hg.
  destruct (trace_stable Inv step_inv ops s0 H0 _ _ _ Hin) as [[Ht _ Hs] ->].
  apply (kind_in_iff s m Ht k f e (Hs Ha f c e Hd Hl)). eauto 6.
Qed.

Definition dir_safe (s : state) : Prop := forall f c, In (f, c) (dir s) -> forall g, panics g c = false.
Definition op_safe (o : op) : Prop := match o with OWrite f c => forall g, panics g c = false | _ => True end.

Lemma dir_safe_all : forall s, dir_safe s.
Proof. intros s f c _ g. apply never_panics. Qed.
Lemma op_safe_all : forall o, op_safe o.
Proof. intros [ | | |f c| | | ]; simpl; try exact I. intro g. apply never_panics. Qed.

Theorem step_alive_always : forall s o, alive s = true -> alive (fst (step s o)) = true.
Proof. intros s o Ha. rewrite step_alive_eq. destruct o; try exact Ha. reflexivity. Qed.

Theorem alive_always : forall ops s0, alive s0 = true ->
  forall s o cs, In (s, o, cs) (trace s0 ops) -> alive s = true.
Proof. intros ops s0 Ha s o cs Hin. apply (trace_stable _ step_alive_always ops s0 Ha s o cs Hin). Qed.

Lemma final_app : forall a b s, final s (a ++ b) = final (final s a) b.
Proof. induction a as [|o a IH]; intros b s; simpl; [reflexivity | apply IH]. Qed.

(* C09_no_miss: the same for Start in every history once the daemon has been started - no file content is excluded *)
Theorem no_miss_started : forall s0 pre post, Inv s0 ->
  forall s m w cs, In (s, OTick m w, cs) (trace (final s0 (pre ++ [ORestart])) post) ->
  forall f c e sp, lookup f (dir s) = Some c -> load f c = FOk e -> In sp (starts e) -> matches sp m = true ->
  mem f (susp s) = false -> start_guard (status_of s f) m = true -> In (CStart f) cs.
Proof.
  intros s0 pre post H0 s m w cs Hin.
  assert (Ha0 : alive (final s0 (pre ++ [ORestart])) = true).
  { rewrite final_app. cbn [final]. apply (step_alive_eq _ ORestart). }
  pose proof (final_stable Inv step_inv (pre ++ [ORestart]) s0 H0) as Hi.
  pose proof (alive_always post _ Ha0 _ _ _ Hin) as Ha.
  intros. eapply (no_miss_kind KStart); eassumption.
Qed.

(* C09_bad_file: a file whose load returns an error (or that is not a DAG file) changes nothing the daemon believes *)
Theorem bad_file_write : forall s f c, (load f c = FErr \/ load f c = FNotDag) ->
  tbl (fst (step s (OWrite f c))) = tbl s /\ alive (fst (step s (OWrite f c))) = alive s.
Proof.
  intros s f c H. split; [|apply (step_alive_eq s (OWrite f c))].
  cbn [step fst]. rewrite on_write_eq. destruct (alive _); [|reflexivity]. destruct H as [-> | ->]; reflexivity.
Qed.

(* at start-up unloadable files are skipped: the table is exactly the loadable part of the directory *)
Theorem bad_file_scan : forall s t, NoDup (map fst (dir s)) -> scan (dir s) [] = Some t ->
  forall f, lookup f t = match lookup f (dir s) with
                         | Some c => match load f c with FOk e => Some e | _ => None end
                         | None => None
                         end.
Proof. intros s t Hd Hs f. rewrite (scan_lookup _ _ _ Hd Hs f). destruct (lookup f (dir s)) as [c|]; [destruct (load f c)|]; reflexivity. Qed.

Theorem bad_file_others : forall s f c h, h <> f ->
  lookup h (tbl (fst (step s (OWrite f c)))) = lookup h (tbl s).
Proof.
  intros s f c h Hne. cbn [step fst]. rewrite on_write_eq. destruct (alive _); [destruct (load f c)|]; try reflexivity.
  apply lookup_upsert_other. congruence.
Qed.

Fixpoint ticks_ge (b : Z) (ops : list op) : Prop :=
  match ops with
  | [] => True
  | OTick m _ :: r => b <= m /\ ticks_ge b r
  | _ :: r => ticks_ge b r
  end.

(* the logical minute never goes back (a restarted daemon resumes at the wall-clock minute, which may be the
   minute that was ticked last) *)
Fixpoint ticks_mono (ops : list op) : Prop :=
  match ops with
  | [] => True
  | OTick m _ :: r => ticks_ge m r /\ ticks_mono r
  | _ :: r => ticks_mono r
  end.

Definition opt_le (a b : option Z) : Prop :=
  match a, b with
  | None, _ => True
  | Some x, Some y => x <= y
  | Some _, None => False
  end.

(* What a history must satisfy for "no minute is started twice" to be meaningful - these are the property's own
   quantifier (which histories count as runs of the daemon and its environment), not exclusions of inputs:
   - a tick never runs before its minute (wall >= 60 m): the timer fires at or after the minute it stands for, and
     a run started by it carries the wall-clock start time;
   - the latest start time of f reported by the client never moves backwards: "its most recent run" is the
     newest run; a history store that loses or rewrites the newest run makes the guard formula itself allow the
     minute again (C09_start_iff), which is what the property states;
   - (ticks_mono below) the logical minute never goes back: the daemon advances minute by minute and a restarted
     daemon resumes at the wall-clock minute. *)
Definition step_ok (f : string) (s : state) (o : op) : Prop :=
  match o with
  | OTick m w => 60 * m <= w
  | OHist g st' => g = f -> opt_le (st_last (status_of s f)) (st_last st')
  | _ => True
  end.

Fixpoint trace_ok (f : string) (s : state) (ops : list op) : Prop :=
  match ops with
  | [] => True
  | o :: r => step_ok f s o /\ trace_ok f (fst (step s o)) r
  end.

(* number of Start calls for f issued by ticks of minute m0 over the whole history *)
Fixpoint starts_at (f : string) (m0 : Z) (s : state) (ops : list op) : nat :=
  match ops with
  | [] => 0%nat
  | o :: r => ((match o with OTick m _ => if (m =? m0)%Z then count (CStart f) (snd (step s o)) else 0 | _ => 0 end)
               + starts_at f m0 (fst (step s o)) r)%nat
  end.

Definition ran_since (s : state) (f : string) (m0 : Z) : Prop :=
  exists l, st_last (status_of s f) = Some l /\ m0 <= l.

(* `status_of` on a bare history list (apply_calls_files works on the list, not on a state) *)
Definition hstatus (h : list (string * status)) (f : string) : status :=
  match lookup f h with Some st => st | None => st_none end.

Lemma after_calls_idem : forall cs w f st, after_calls cs w f (after_calls cs w f st) = after_calls cs w f st.
Proof. intros. unfold after_calls. destruct (started_in cs f); [reflexivity|]. destruct (stopped_in cs f); reflexivity. Qed.

Lemma apply_calls_files_status : forall cs w fs h g,
  hstatus (apply_calls_files cs w fs h) g =
  if existsb (String.eqb g) fs then after_calls cs w g (hstatus h g) else hstatus h g.
Proof.
  intros cs w. induction fs as [|f1 fs IH]; intros h g; cbn [apply_calls_files existsb]; [reflexivity|].
  rewrite IH. fold (hstatus h f1).
  assert (E : hstatus (upsert f1 (after_calls cs w f1 (hstatus h f1)) h) g =
              if String.eqb g f1 then after_calls cs w g (hstatus h g) else hstatus h g).
  { unfold hstatus at 1. destruct (String.eqb g f1) eqn:Eg.
    - apply String.eqb_eq in Eg. subst. rewrite lookup_upsert_same. reflexivity.
    - apply String.eqb_neq in Eg. rewrite lookup_upsert_other by congruence. reflexivity. }
  rewrite E. destruct (String.eqb g f1); simpl; [|reflexivity].
  destruct (existsb (String.eqb g) fs); [apply after_calls_idem | reflexivity].
Qed.

Lemma status_after_tick : forall s m w f,
  status_of (fst (step s (OTick m w))) f =
  let cs := tick_calls s m in
  if existsb (String.eqb f) (map call_file cs) then after_calls cs w f (status_of s f) else status_of s f.
Proof. intros. cbn [step fst]. unfold status_of. simpl. apply apply_calls_files_status. Qed.

Lemma started_in_start : forall cs f, In (CStart f) cs -> started_in cs f = true /\ existsb (String.eqb f) (map call_file cs) = true.
Proof.
  intros cs f H. split.
  - unfold started_in. apply existsb_exists. exists (CStart f). split; [assumption|]. simpl. apply String.eqb_refl.
  - apply existsb_exists. exists f. split; [|apply String.eqb_refl]. apply in_map_iff. exists (CStart f). split; [reflexivity | assumption].
Qed.

(* after a tick the latest run of f started at or after m0 if it did before, or if the tick starts f *)
Lemma tick_ran : forall s m w f m0, 60 * m <= w -> m0 <= m ->
  ran_since s f m0 \/ In (CStart f) (tick_calls s m) -> ran_since (fst (step s (OTick m w))) f m0.
Proof.
  intros s m w f m0 Hw Hm H. unfold ran_since. rewrite status_after_tick. cbv zeta. unfold after_calls.
  assert (Hnew : exists l, Some (w / 60) = Some l /\ m0 <= l).
  { exists (w / 60). split; [reflexivity|]. apply Z.le_trans with m; [assumption|]. apply Z.div_le_lower_bound; lia. }
  destruct H as [(l & Hl & Hle) | Hin].
  - destruct (existsb _ _); [|eauto]. destruct (started_in _ f); [exact Hnew|]. destruct (stopped_in _ f); simpl; eauto.
  - destruct (started_in_start _ _ Hin) as [-> ->]. exact Hnew.
Qed.

Lemma step_keeps_ran : forall s o f m0, ran_since s f m0 -> step_ok f s o ->
  (match o with OTick m _ => m0 <= m | _ => True end) -> ran_since (fst (step s o)) f m0.
Proof.
  intros s o f m0 Hr Hok Hm.
  destruct o as [m w|g st| | | | |]; try (unfold ran_since, status_of in *; rewrite step_hist; exact Hr).
  - apply tick_ran; auto.
  - destruct Hr as (l & Hl & Hle). unfold ran_since, status_of. rewrite step_hist.
    destruct (string_dec g f) as [->|Hne].
    + rewrite lookup_upsert_same. specialize (Hok eq_refl). rewrite Hl in Hok. simpl in Hok.
      destruct (st_last st) as [l'|]; [|contradiction]. exists l'. split; [reflexivity | lia].
    + rewrite lookup_upsert_other by assumption. exists l. split; assumption.
Qed.

Lemma no_start_after_run : forall s f m0, NoDup (map fst (tbl s)) -> ran_since s f m0 ->
  count (CStart f) (tick_calls s m0) = 0%nat.
Proof.
  intros s f m0 Ht (l & Hl & Hle). rewrite (tick_count s m0 (CStart f) Ht). cbn [call_file].
  destruct (alive s); [|reflexivity]. destruct (lookup f (tbl s)) as [e|]; [|reflexivity].
  destruct (mem f (susp s)); [reflexivity|]. cbn [file_count]. rewrite String.eqb_refl.
  unfold start_guard. rewrite Hl. replace (l <? m0) with false by (symmetry; apply Z.ltb_ge; lia).
  rewrite !andb_false_r. reflexivity.
Qed.

Lemma quiet_after_run : forall ops s f m0, NoDup (map fst (tbl s)) -> ran_since s f m0 ->
  ticks_ge m0 ops -> trace_ok f s ops -> starts_at f m0 s ops = 0%nat.
Proof.
  induction ops as [|o ops IH]; intros s f m0 Ht Hr Hge Hok; [reflexivity|].
  cbn [starts_at]. destruct Hok as [Hok1 Hok2].
  assert (Hm : match o with OTick m _ => m0 <= m | _ => True end).
  { destruct o; simpl in Hge; try exact I. tauto. }
  assert (Hge' : ticks_ge m0 ops) by (destruct o; simpl in Hge; tauto).
  rewrite (IH (fst (step s o)) f m0 (step_tbl_nodup s o Ht) (step_keeps_ran s o f m0 Hr Hok1 Hm) Hge' Hok2).
  destruct o as [m w| | | | | |]; try reflexivity.
  destruct (m =? m0) eqn:E; [|reflexivity]. apply Z.eqb_eq in E. subst m. cbn [step snd].
  rewrite (no_start_after_run s f m0 Ht Hr). reflexivity.
Qed.

Lemma ticks_ge_trans : forall ops a b, a <= b -> ticks_ge b ops -> ticks_ge a ops.
Proof. induction ops as [|o ops IH]; intros a b Hab H; [exact I|]. destruct o; simpl in *; try (eapply IH; eassumption). split; [lia | eapply IH; [eassumption | tauto]]. Qed.

(* C09_no_double: the ticks of any given minute m0 issue at most one Start for f - whatever its schedules, whatever the
   lag, however often the daemon is restarted, whatever happens to the directory *)
Theorem no_double : forall ops s f m0, NoDup (map fst (tbl s)) -> ticks_mono ops -> trace_ok f s ops ->
  (starts_at f m0 s ops <= 1)%nat.
Proof.
  induction ops as [|o ops IH]; intros s f m0 Ht Hmono Hok; [simpl; lia|].
  cbn [starts_at]. destruct Hok as [Hok1 Hok2].
  pose proof (step_tbl_nodup s o Ht) as Ht'.
  assert (Hmono' : ticks_mono ops) by (destruct o; simpl in Hmono; tauto).
  specialize (IH (fst (step s o)) f m0 Ht' Hmono' Hok2).
  destruct o as [m w| | | | | |]; try lia.
  destruct (m =? m0) eqn:E; [|lia]. apply Z.eqb_eq in E. subst m.
  destruct Hmono as [Hge _]. pose proof Hok1 as Hw. cbn [step_ok] in Hw. cbn [step snd] in *.
  (* at most one call from this tick *)
  pose proof (call_once s m0 Ht (CStart f)) as Hc.
  destruct (count (CStart f) (tick_calls s m0)) as [|[|n]] eqn:Ec; [lia| |lia].
  (* one call: from now on the latest run of f started at or after m0 *)
  assert (Hin : In (CStart f) (tick_calls s m0)) by (apply count_pos_in; lia).
  assert (Hr : ran_since (fst (step s (OTick m0 w))) f m0) by (apply tick_ran; [exact Hw | lia | right; exact Hin]).
  rewrite (quiet_after_run ops _ f m0 Ht' Hr Hge Hok2). lia.
Qed.
