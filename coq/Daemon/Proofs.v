(* C09: the guard formula of one tick (`kind_iff`: C09_start_iff, C09_stop_iff, C09_restart_iff): per DAG file and operation the tick issues
   exactly one call if some schedule of that kind fires at the minute and the job's guard holds, else none. *)
From Coq Require Import List Bool Arith ZArith Lia String Permutation.
Import ListNotations.
From BD.Cron Require Import Model Schedule ProofsNext.
From BD.Daemon Require Import Model ProofsTick.
Local Open Scope Z_scope.

Lemma hit_iff : forall m sps, hit m sps = true <-> exists sp, In sp sps /\ matches sp m = true.
Proof. intros. unfold hit. apply existsb_exists. Qed.

Definition ksched (k : skind) (e : sched3) : list spec :=
  match k with KStart => starts e | KStop => stops e | KRestart => restarts e end.

Section Tick.
  Variable s : state.
  Variable m : Z.
  Hypothesis keys : NoDup (map fst (tbl s)).

  Theorem kind_iff : forall k f e, lookup f (tbl s) = Some e ->
    count (kcall k f) (tick_calls s m) =
    b2n (alive s && negb (mem f (susp s)) && kguard s m k f && hit m (ksched k e)).
  Proof.
    intros k f e Hl. rewrite (tick_count s m (kcall k f) keys).
    replace (call_file (kcall k f)) with f by (destruct k; reflexivity). rewrite Hl.
    destruct (alive s); [|reflexivity]. destruct (mem f (susp s)); [reflexivity|]. cbn [negb andb].
    destruct k; cbn [kcall file_count kguard ksched]; rewrite String.eqb_refl; [apply f_equal, andb_comm ..|reflexivity].
  Qed.

  (* Restart has no guard *)
  Corollary restart_iff : forall f e, lookup f (tbl s) = Some e ->
    count (CRestart f) (tick_calls s m) = b2n (alive s && negb (mem f (susp s)) && hit m (restarts e)).
  Proof. intros f e Hl. rewrite (kind_iff KRestart f e Hl : count (CRestart f) _ = _). cbn [kguard]. rewrite andb_true_r. reflexivity. Qed.

  Theorem unknown_file_silent : forall c, lookup (call_file c) (tbl s) = None -> count c (tick_calls s m) = 0%nat.
  Proof. intros c Hl. rewrite (tick_count s m c keys), Hl. destruct (alive s); reflexivity. Qed.

  Theorem call_once : forall c, (count c (tick_calls s m) <= 1)%nat.
  Proof.
    intros c. rewrite (tick_count s m c keys). destruct (alive s); [|lia].
    destruct (lookup (call_file c) (tbl s)); [|lia]. destruct (mem _ _); [lia | apply file_count_le1].
  Qed.

  Lemma b2n_pos : forall b, (0 < b2n b)%nat <-> b = true.
  Proof. intros [|]; simpl; split; intro; try lia; try reflexivity; discriminate. Qed.

  (* the property's wording: a start for f is issued at m iff one of its start schedules matches m, it is not
     suspended, not running (and its status is readable) and its latest run started before m; likewise stop, restart *)
  Corollary kind_in_iff : forall k f e, lookup f (tbl s) = Some e ->
    (In (kcall k f) (tick_calls s m) <->
     alive s = true /\ mem f (susp s) = false /\ kguard s m k f = true /\
     exists sp, In sp (ksched k e) /\ matches sp m = true).
  Proof.
    intros k f e Hl. rewrite <- count_pos_in, (kind_iff k f e Hl), b2n_pos, <- hit_iff, !andb_true_iff, negb_true_iff. tauto.
  Qed.

  Corollary restart_in_iff : forall f e, lookup f (tbl s) = Some e ->
    (In (CRestart f) (tick_calls s m) <->
     alive s = true /\ mem f (susp s) = false /\ exists sp, In sp (restarts e) /\ matches sp m = true).
  Proof. intros f e Hl. rewrite (kind_in_iff KRestart f e Hl : In (CRestart f) _ <-> _). cbn [kguard ksched]. tauto. Qed.
End Tick.

(* The operations of one tick are independent: what the tick does for file f is determined by f's own entry, f's
   suspension and f's latest status (and the daemon being alive) - not by which other DAGs are loaded, due,
   running or being started in the same tick.  (scheduler.go run: one goroutine per due entry.) *)
Theorem tick_independent : forall s s' m c,
  NoDup (map fst (tbl s)) -> NoDup (map fst (tbl s')) ->
  alive s = alive s' ->
  lookup (call_file c) (tbl s) = lookup (call_file c) (tbl s') ->
  mem (call_file c) (susp s) = mem (call_file c) (susp s') ->
  status_of s (call_file c) = status_of s' (call_file c) ->
  count c (tick_calls s m) = count c (tick_calls s' m).
Proof.
  intros s s' m c K K' Ha Hl Hs Hst.
  assert (Hf : forall e, file_count s m (call_file c) e c = file_count s' m (call_file c) e c).
  { intro e. unfold file_count. destruct c; cbn [call_file] in *; rewrite ?Hst; reflexivity. }
  rewrite (tick_count s m c K), (tick_count s' m c K'), Ha, Hl, Hs.
  destruct (alive s'); [|reflexivity]. destruct (lookup (call_file c) (tbl s')) as [e|]; [|reflexivity].
  rewrite Hf. reflexivity.
Qed.

Section AssocLemmas.
  Context {V : Type}.
  Implicit Types l : list (string * V).

  Lemma lookup_remove_same : forall k l, lookup k (remove_key k l) = None.
  Proof.
    intros k l. induction l as [|[k' v] l IH]; simpl; [reflexivity|].
    destruct (String.eqb k' k) eqn:E; [assumption|]. simpl. rewrite E. assumption.
  Qed.

  Lemma lookup_remove_other : forall k k' l, k <> k' -> lookup k' (remove_key k l) = lookup k' l.
  Proof.
    intros k k' l Hne. induction l as [|[k1 v] l IH]; simpl; [reflexivity|].
    destruct (String.eqb k1 k) eqn:E.
    - apply String.eqb_eq in E. subst. replace (String.eqb k k') with false by (symmetry; apply String.eqb_neq; assumption).
      assumption.
    - simpl. rewrite IH. reflexivity.
  Qed.

  Lemma lookup_app : forall k l1 l2, lookup k (l1 ++ l2) = match lookup k l1 with Some v => Some v | None => lookup k l2 end.
  Proof.
    intros k l1 l2. induction l1 as [|[k1 v] l1 IH]; simpl; [reflexivity|]. destruct (String.eqb k1 k); [reflexivity | assumption].
  Qed.

  Lemma lookup_upsert_same : forall k v l, lookup k (upsert k v l) = Some v.
  Proof. intros. unfold upsert. rewrite lookup_app, lookup_remove_same. simpl. rewrite String.eqb_refl. reflexivity. Qed.

  Lemma lookup_upsert_other : forall k k' v l, k <> k' -> lookup k' (upsert k v l) = lookup k' l.
  Proof.
    intros k k' v l Hne. unfold upsert. rewrite lookup_app, lookup_remove_other by assumption.
    destruct (lookup k' l); [reflexivity|]. simpl.
    replace (String.eqb k k') with false by (symmetry; apply String.eqb_neq; assumption). reflexivity.
  Qed.

  Lemma keys_remove : forall k l, map fst (remove_key k l) = filter (fun x => negb (String.eqb x k)) (map fst l).
  Proof.
    intros k l. induction l as [|[k1 v] l IH]; simpl; [reflexivity|].
    destruct (String.eqb k1 k); simpl; [assumption | rewrite IH; reflexivity].
  Qed.

  Lemma nodup_remove : forall k l, NoDup (map fst l) -> NoDup (map fst (remove_key k l)).
  Proof. intros. rewrite keys_remove. apply NoDup_filter. assumption. Qed.

  Lemma nodup_upsert : forall k v l, NoDup (map fst l) -> NoDup (map fst (upsert k v l)).
  Proof.
    intros k v l H. unfold upsert. rewrite map_app. simpl.
    apply (Permutation_NoDup (Permutation_cons_append _ k)). constructor; [|apply nodup_remove; assumption].
    rewrite keys_remove. intro Hin. apply filter_In in Hin. destruct Hin as [_ Hk]. rewrite String.eqb_refl in Hk. discriminate.
  Qed.
End AssocLemmas.
