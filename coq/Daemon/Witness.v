(* C09: concrete histories evaluated by vm_compute - the premises of the theorems are satisfiable, and the inputs that
   used to contradict the property (F9a zero Next, F9b overlapping start schedules, F13a/b loader panics; all repaired
   in /repo) now behave as the property demands.  The same inputs are replayed on the real code by
   tools/props/C09.py (fixed sequences of harness/cmd/cron, findings/). *)
From Coq Require Import List Bool Arith ZArith Lia String.
Import ListNotations.
From BD.Cron Require Import Model Schedule ProofsNext.
From BD.Daemon Require Import Model ProofsTick Proofs ProofsSeq.
Local Open Scope string_scope.
Local Open Scope Z_scope.

(* decidable forms of the premises of no_double; `opt_leb` is `opt_le` of ProofsSeq.v as a boolean (the same function
   as `next_leb` of the model: the zero time first) *)
Definition opt_leb (a b : option Z) : bool :=
  match a, b with None, _ => true | Some x, Some y => x <=? y | Some _, None => false end.

Definition step_okb (f : string) (s : state) (o : op) : bool :=
  match o with
  | OTick m w => 60 * m <=? w
  | OHist g st' => if String.eqb g f then opt_leb (st_last (status_of s f)) (st_last st') else true
  | _ => true
  end.

Fixpoint trace_okb (f : string) (s : state) (ops : list op) : bool :=
  match ops with [] => true | o :: r => step_okb f s o && trace_okb f (fst (step s o)) r end.

Fixpoint ticks_geb (b : Z) (ops : list op) : bool :=
  match ops with [] => true | OTick m _ :: r => (b <=? m) && ticks_geb b r | _ :: r => ticks_geb b r end.
Fixpoint ticks_monob (ops : list op) : bool :=
  match ops with [] => true | OTick m _ :: r => ticks_geb m r && ticks_monob r | _ :: r => ticks_monob r end.

Lemma step_okb_ok : forall f s o, step_okb f s o = true -> step_ok f s o.
Proof.
  intros f s o H. destruct o as [m w|g st|g on|g c|g|g g'|]; simpl in *; try exact I.
  - apply Z.leb_le. assumption.
  - intros ->. rewrite String.eqb_refl in H. unfold opt_leb, opt_le in *.
    destruct (st_last (status_of s f)), (st_last st); try exact I; try discriminate. apply Z.leb_le. assumption.
Qed.

Lemma trace_okb_ok : forall ops f s, trace_okb f s ops = true -> trace_ok f s ops.
Proof.
  induction ops as [|o ops IH]; intros f s H; [exact I|]. simpl in H. apply andb_true_iff in H as [H1 H2].
  split; [apply step_okb_ok; assumption | apply IH; assumption].
Qed.

Lemma ticks_geb_ok : forall ops b, ticks_geb b ops = true -> ticks_ge b ops.
Proof.
  induction ops as [|o ops IH]; intros b H; [exact I|]. destruct o; simpl in *; try (apply IH; assumption).
  apply andb_true_iff in H as [H1 H2]. apply Z.leb_le in H1. split; [assumption | apply IH; assumption].
Qed.

Lemma ticks_monob_ok : forall ops, ticks_monob ops = true -> ticks_mono ops.
Proof.
  induction ops as [|o ops IH]; intro H; [exact I|]. destruct o; simpl in *; try (apply IH; assumption).
  apply andb_true_iff in H as [H1 H2]. split; [apply ticks_geb_ok; assumption | apply IH; assumption].
Qed.

Corollary no_double_b : forall ops s f m0, NoDup (map fst (tbl s)) -> ticks_monob ops = true -> trace_okb f s ops = true ->
  (starts_at f m0 s ops <= 1)%nat.
Proof. intros. apply no_double; [assumption | apply ticks_monob_ok; assumption | apply trace_okb_ok; assumption]. Qed.

Definition m0 : Z := 28589040.      (* 2024-05-10 12:00 UTC *)
Definition file (v : sval) : content := CSched v.
Definition after (d : list (string * content)) (ops : list op) : state := final (init_state d) ops.
Definition entry_of (s : state) (f : string) : sched3 := match lookup f (tbl s) with Some e => e | None => no_sched end.
Definition content_of (s : state) (f : string) : content := match lookup f (dir s) with Some c => c | None => CBad end.
Definition loaded (f : string) (c : content) : sched3 := match load f c with FOk e => e | _ => no_sched end.

Definition d_f9a_start := [("d0.yaml", file (SStr "0 0 30 2 *"))].
Definition d_f9a_restart := [("d0.yaml", file (SMap [(KStr "restart", MStr "0 0 30 2 *")]))].
Definition d_f9b := [("d0.yaml", file (SList [IStr "* * * * *"; IStr "*/2 * * * *"]))].
Definition d_f13a := [("d0.yaml", file (SStr "* * * * *")); ("d1.yaml", file (SMap [(KStr "begin", MStr "* * * * *")]))].
Definition d_good := [("d0.yaml", file (SStr "* * * * *")); ("zz.yaml", CBad)].

(* a tick at whose minute no schedule of the table fires issues no call: its calls are, up to order, those of the schedules that
   match the minute (kind_calls_eq) *)
Lemma silent_tick : forall s m,
  forallb (fun fe => negb (hit m (starts (snd fe)) || hit m (stops (snd fe)) || hit m (restarts (snd fe)))) (tbl s) = true ->
  tick_calls s m = [].
Proof.
  intros s m H. destruct (alive s) eqn:A; [|unfold tick_calls; rewrite A; reflexivity].
  pose proof (tick_calls_perm s m A) as P. rewrite all_calls_files in P.
  apply Permutation.Permutation_nil, Permutation.Permutation_sym. revert H P.
  induction (tbl s) as [|[f e] t IH]; cbn [forallb flat_map fst snd]; intros H P; [exact P|].
  apply andb_prop in H as [H1 H2]. apply negb_true_iff in H1. apply orb_false_iff in H1 as [H1 Hr]. apply orb_false_iff in H1 as [Hs Hp].
  rewrite file_calls_split, !kind_calls_eq, Hs, Hp, Hr in P. destruct (mem f (susp s)); exact (IH H2 P).
Qed.

Lemma run_cons : forall s o r, run s (o :: r) = snd (step s o) :: run (fst (step s o)) r.
Proof. intros. cbn [run]. destruct (step s o). reflexivity. Qed.

Lemma silent_run : forall s m w r, tick_calls s m = [] -> run s (OTick m w :: r) = [] :: run s r.
Proof. intros [] m w r H. rewrite run_cons. cbn [step fst snd]. rewrite H. reflexivity. Qed.

(* The former F9a witnesses: a schedule that never fires within the horizon ('0 0 30 2 *') as start and as
   restart schedule.  The zero time returned by Next is skipped now: no call at any tick. *)
Example former_zero_next_is_silent :
  run (init_state d_f9a_start) [ORestart; OTick m0 (60 * m0); OTick (m0 + 1) (60 * m0 + 60)] = [[]; []; []] /\
  run (init_state d_f9a_restart) [ORestart; OTick m0 (60 * m0); OTick (m0 + 1) (60 * m0 + 60); OTick (m0 + 2) (60 * m0 + 120)]
    = [[]; []; []; []] /\
  restarts (entry_of (final (init_state d_f9a_restart) [ORestart]) "d0.yaml") = [feb30] /\
  next feb30 (60 * m0 - 1) = None.
Proof.
  (* no schedule matches these minutes (cheap to evaluate), so the ticks are silent; evaluating the runs themselves would search the
     five-year horizon of Next at every tick *)
  repeat apply conj; [| | vm_compute; reflexivity | exact (proj1 (proj2 due_former_f9a))];
    rewrite run_cons, !silent_run by (apply silent_tick; vm_compute; reflexivity); reflexivity.
Qed.

(* The former F9b witness: two start schedules of one DAG that match the same minute.  One entry per file and
   operation now: one Start in that tick, one Start for the minute over the history. *)
Example former_overlap_starts_once :
  run (init_state d_f9b) [ORestart; OTick m0 (60 * m0); OTick (m0 + 1) (60 * m0 + 60)] = [[]; [CStart "d0.yaml"]; []] /\
  count (CStart "d0.yaml") (tick_calls (after d_f9b [ORestart]) m0) = 1%nat /\
  List.length (filter (fun sp => matches sp m0) (starts (entry_of (after d_f9b [ORestart]) "d0.yaml"))) = 2%nat /\
  starts_at "d0.yaml" m0 (init_state d_f9b) [ORestart; OTick m0 (60 * m0)] = 1%nat.
Proof. vm_compute. repeat split. Qed.

(* The former F13a / F13b witnesses (a schedule map with an unknown key; a schedule that is only a zone prefix),
   at start-up and through the watcher: since c2912bd / 519d0a6 such a file merely fails to load - the daemon
   lives and the other DAG is started. *)
Example former_loader_panics_are_errors :
  run (init_state d_f13a) [ORestart; OTick m0 (60 * m0)] = [[]; [CStart "d0.yaml"]] /\
  alive (final (init_state d_f13a) [ORestart]) = true /\
  run (init_state d_good) [ORestart; OWrite "d1.yaml" (file (SStr "CRON_TZ=UTC")); OTick m0 (60 * m0)] = [[]; []; [CStart "d0.yaml"]] /\
  load "d1.yaml" (file (SStr "CRON_TZ=UTC")) = FErr /\
  load "d1.yaml" (file (SMap [(KStr "begin", MStr "* * * * *")])) = FErr.
Proof. vm_compute. repeat split. Qed.

Definition d_sat := [("d0.yaml", file (SMap [(KStr "start", MStr "*/2 * * * *"); (KStr "stop", MStr "0 18 * * *")])); ("zz.yaml", CBad)].

Example start_iff_sat : exists s m f e,
  NoDup (map fst (tbl s)) /\ lookup f (tbl s) = Some e /\
  count (CStart f) (tick_calls s m) = 1%nat /\ count (CStart f) (tick_calls s (m + 1)) = 0%nat.
Proof.
  exists (after d_sat [ORestart]), m0, "d0.yaml", (entry_of (after d_sat [ORestart]) "d0.yaml").
  split; [vm_compute; repeat constructor; intros []|].
  split; [vm_compute; reflexivity|].
  split; vm_compute; reflexivity.
Qed.

(* C09_no_double / C09_no_miss: a history with lag, bunched ticks, a daemon restart inside a minute already ticked, a run
   that ends, a bad file and a file added while the daemon runs *)
Definition h_ops : list op :=
  [ORestart;
   OTick m0 (60 * m0 + 7);
   OHist "d0.yaml" {| st_err := false; st_run := false; st_last := Some m0 |};      (* the run ends *)
   ORestart;                                                                         (* daemon restarted within the minute *)
   OTick m0 (60 * m0 + 40);
   OWrite "d2.yaml" (file (SStr "* * * * *"));                                       (* added while running *)
   OWrite "bad.yaml" CBad;
   OTick (m0 + 1) (60 * m0 + 200);                                                   (* late *)
   OTick (m0 + 2) (60 * m0 + 200);                                                   (* bunched *)
   OTick (m0 + 3) (60 * m0 + 200)].

Example history_sat :
  Inv (init_state d_good) /\ ticks_mono h_ops /\ trace_ok "d0.yaml" (init_state d_good) h_ops /\
  trace_ok "d2.yaml" (init_state d_good) h_ops /\
  run (init_state d_good) h_ops =
    [[]; [CStart "d0.yaml"]; []; []; []; []; []; [CStart "d0.yaml"; CStart "d2.yaml"]; []; []] /\
  starts_at "d0.yaml" m0 (init_state d_good) h_ops = 1%nat.
Proof.
  split; [apply init_inv; repeat constructor; simpl; intuition discriminate|].
  split; [apply ticks_monob_ok; vm_compute; reflexivity|].
  split; [apply trace_okb_ok; vm_compute; reflexivity|].
  split; [apply trace_okb_ok; vm_compute; reflexivity|].
  split; vm_compute; reflexivity.
Qed.

Example alive_sat : dir_safe (init_state d_good) /\ Forall op_safe h_ops.
Proof. split; [apply dir_safe_all | apply Forall_forall; intros o _; apply op_safe_all]. Qed.
