(* Log - theorems (C12) about the REPAIRED code (8880f0d, f5eca82, 78722d0), for any configuration and any number of
   attempts.  The idea: every sink (a bufio writer on an open descriptor of a path) keeps `file ++ buffered = bytes
   accepted` with at most 4096 bytes buffered (`good`); an operation on one writer leaves the other sinks alone
   (`frame`); teardown flushes what is buffered, so between attempts the files hold everything (`idle`). *)
From Coq Require Import List Bool Arith NArith Lia.
Import ListNotations.
From BD.Log Require Import Model.

Definition mkc (a b c d : bool) : cfg := {| c_stdout := a; c_stderr := b; c_output := c; c_script := d |}.

Lemma BUFSZ_pos : 0 < BUFSZ.
Proof. unfold BUFSZ. lia. Qed.

(* no proof looks into BUFSZ (any bound would do); opaque, so that no tactic expands N.to_nat 4096 into unary *)
Global Opaque BUFSZ.

Section Proofs.
Variable A : Type.
Notation bytes := (list A).

Lemma mget_mset_same {X} (d : X) m k v : mget d (mset m k v) k = v.
Proof.
  induction m as [|[k' v'] m IH]; cbn; [now rewrite Nat.eqb_refl|].
  destruct (k =? k') eqn:E; cbn; [now rewrite Nat.eqb_refl | now rewrite E].
Qed.
Lemma mget_mset_other {X} (d : X) m k k2 v : k2 <> k -> mget d (mset m k v) k2 = mget d m k2.
Proof.
  intros Hn. induction m as [|[k' v'] m IH]; cbn.
  - destruct (k2 =? k) eqn:E; [apply Nat.eqb_eq in E; contradiction | reflexivity].
  - destruct (k =? k') eqn:E; cbn.
    + apply Nat.eqb_eq in E. subst k'. destruct (k2 =? k) eqn:E2; [apply Nat.eqb_eq in E2; contradiction | reflexivity].
    + destruct (k2 =? k'); [reflexivity | exact IH].
Qed.
Lemma mget_mset_self {X} (d : X) m k q : mget d (mset m k (mget d m k)) q = mget d m q.
Proof. destruct (Nat.eq_dec q k) as [->|Hn]; [apply mget_mset_same | now apply mget_mset_other]. Qed.

(* a sink: bufio writer b with content bf on the open descriptor f of `path` *)
Definition sink (s : st A) (b f path : nat) (bf : bytes) : Prop :=
  buf A s b = {| bw_buf := bf; bw_fd := f; bw_err := false |} /\ fdd A s f = {| fd_path := path; fd_closed := false |}.

(* the file behind ANY writer (its descriptor may reject writes, it may carry an error) *)
Definition wpath (s : st A) (b : nat) : nat := fd_path (fdd A s (bw_fd A (buf A s b))).

Lemma sink_wpath s b f path bf : sink s b f path bf -> wpath s b = path.
Proof. intros [Hb Hf]. unfold wpath. rewrite Hb. cbn. now rewrite Hf. Qed.

(* s' differs from s at most in the file behind writer b and in writer b, whose descriptor stays the same: s' is s
   with another disk d and other writers bs *)
Definition frame (s s' : st A) (b : nat) : Prop :=
  exists d bs, s' = set_bufs A (set_disk A s d) bs (nbuf A s) /\
    (forall q, q <> wpath s b -> mget [] d q = dsk A s q) /\ (forall b', b' <> b -> mget (no_buf A) bs b' = buf A s b') /\
    bw_fd A (mget (no_buf A) bs b) = bw_fd A (buf A s b).

Lemma frame_refl s b : frame s s b.
Proof. exists (disk A s), (bufs A s). destruct s. repeat split; reflexivity. Qed.

Lemma frame_trans s s1 s2 b : frame s s1 b -> frame s1 s2 b -> frame s s2 b.
Proof.
  intros (d1 & bs1 & -> & D1 & B1 & W1) (d2 & bs2 & -> & D2 & B2 & W2).
  assert (Hp : wpath (set_bufs A (set_disk A s d1) bs1 (nbuf A s)) b = wpath s b) by (unfold wpath, buf, fdd in *; cbn; now rewrite W1).
  exists d2, bs2. split; [reflexivity|]. split; [|split].
  - intros q Hq. rewrite D2 by now rewrite Hp. now apply D1.
  - intros b' Hb'. rewrite B2 by exact Hb'. now apply B1.
  - now rewrite W2.
Qed.

Lemma frame_dsk s s' b q : frame s s' b -> q <> wpath s b -> dsk A s' q = dsk A s q.
Proof. intros (d & bs & -> & D & _) Hq. now apply D. Qed.

Lemma frame_wpath s s' b b2 : frame s s' b -> wpath s' b2 = wpath s b2.
Proof.
  intros (d & bs & -> & _ & B & W). unfold wpath, buf, fdd in *. cbn.
  destruct (Nat.eq_dec b2 b) as [->|N]; [now rewrite W | now rewrite B].
Qed.

Lemma raw_frame s b p keep : frame s (fst (bw_raw A s b p keep)) b.
Proof.
  unfold bw_raw, fd_write. destruct (fd_closed (fdd A s (bw_fd A (buf A s b)))) eqn:Ec; cbn [fst].
  - eexists (disk A s), _. split; [reflexivity|]. repeat split; try reflexivity.
    + intros b' Hb'. now apply mget_mset_other.
    + now rewrite mget_mset_same.
  - eexists _, _. split; [reflexivity|]. repeat split.
    + intros q Hq. now apply mget_mset_other.
    + intros b' Hb'. now apply mget_mset_other.
    + now rewrite mget_mset_same.
Qed.

Lemma write_frame s b p : frame s (fst (bw_write A s b p)) b.
Proof.
  unfold bw_write. destruct (bw_err A (buf A s b)); [apply frame_refl|].
  destruct (length p <=? BUFSZ - length (bw_buf A (buf A s b))).
  - cbn [fst]. eexists (disk A s), _. split; [reflexivity|]. repeat split; try reflexivity.
    + intros b' Hb'. now apply mget_mset_other.
    + now rewrite mget_mset_same.
  - destruct (bw_buf A (buf A s b)) as [|x l]; [apply raw_frame|].
    destruct (length (skipn (BUFSZ - length (x :: l)) p) <=? BUFSZ); [apply raw_frame|].
    match goal with |- context [bw_raw A s b ?a []] =>
      pose proof (raw_frame s b a []) as H1; destruct (bw_raw A s b a []) as [s1 ok] end.
    cbn [fst] in H1. destruct ok; [|exact H1].
    eapply frame_trans; [exact H1 | apply raw_frame].
Qed.

Lemma flush_frame s b : frame s (fst (bw_flush A s b)) b.
Proof.
  unfold bw_flush. destruct (bw_err A (buf A s b)); [apply frame_refl|].
  destruct (bw_buf A (buf A s b)); [apply frame_refl | apply raw_frame].
Qed.

Lemma raw_spec s b f path bf p keep : sink s b f path bf ->
  exists s', bw_raw A s b p keep = (s', true) /\ dsk A s' path = dsk A s path ++ p /\ sink s' b f path keep /\ frame s s' b.
Proof.
  intros [Hb Hf]. pose proof (raw_frame s b p keep) as F. revert F.
  unfold bw_raw, fd_write. rewrite Hb. cbn [bw_fd]. rewrite Hf. cbn [fd_closed fd_path fst]. intros F.
  eexists. split; [reflexivity|]. split; [|split; [split|exact F]].
  - unfold dsk. cbn. apply mget_mset_same.
  - unfold buf. cbn. apply mget_mset_same.
  - exact Hf.
Qed.

Lemma flush_spec s b f path bf : sink s b f path bf ->
  let s' := fst (bw_flush A s b) in
  dsk A s' path = dsk A s path ++ bf /\ sink s' b f path [] /\ frame s s' b.
Proof.
  intros Hs s'. pose proof (flush_frame s b) as F. fold s' in F. revert s' F.
  destruct Hs as [Hb Hf]. unfold bw_flush. rewrite Hb. cbn [bw_err bw_buf].
  destruct bf as [|b0 bf'].
  - cbn [fst]. intros F. rewrite app_nil_r. split; [reflexivity|]. split; [now split | exact F].
  - destruct (raw_spec s b f path (b0 :: bf') (b0 :: bf') [] (conj Hb Hf)) as (s' & R & D & S1 & _).
    rewrite R. cbn [fst]. auto.
Qed.

Lemma readfrom_spec s b f path p : sink s b f path [] ->
  exists s', bw_readfrom A s b p = (s', true) /\ dsk A s' path = dsk A s path ++ p /\ sink s' b f path [] /\ frame s s' b.
Proof.
  intros Hs. pose proof Hs as [Hb Hf]. unfold bw_readfrom. rewrite Hb. cbn [bw_err bw_buf].
  exact (raw_spec s b f path [] p [] Hs).
Qed.

(* the invariant of a sink: what the file holds followed by what is buffered is what the sink has accepted *)
Definition good (s : st A) (b f path : nat) (acc : bytes) : Prop :=
  exists bf, sink s b f path bf /\ dsk A s path ++ bf = acc /\ length bf <= BUFSZ.

(* Write keeps the invariant in each of its cases: p fits; bypass of an empty buffer; fill and flush, the rest kept or
   written through *)
Lemma write_good s b f path acc p : good s b f path acc ->
  exists s', bw_write A s b p = (s', true) /\ good s' b f path (acc ++ p) /\ frame s s' b.
Proof.
  intros (bf & Hs & <- & Hl). pose proof (write_frame s b p) as F. revert F.
  pose proof Hs as [Hb Hf]. unfold bw_write. rewrite Hb. cbn [bw_err bw_buf bw_fd].
  destruct (length p <=? BUFSZ - length bf) eqn:E1.
  - apply Nat.leb_le in E1. cbn [fst]. intros F. eexists. split; [reflexivity|]. split; [|exact F].
    exists (bf ++ p). split; [split; [unfold buf; cbn; apply mget_mset_same | exact Hf]|].
    split; [now rewrite app_assoc | rewrite app_length; lia].
  - destruct bf as [|b0 bf'].
    + destruct (raw_spec s b f path [] p [] Hs) as (s' & R & D & S1 & _). rewrite R. cbn [fst]. intros F.
      exists s'. split; [reflexivity|]. split; [|exact F]. exists []. rewrite D, !app_nil_r. split; [exact S1 | split; [reflexivity | cbn; lia]].
    + set (bf := b0 :: bf') in *. set (n := BUFSZ - length bf).
      destruct (length (skipn n p) <=? BUFSZ) eqn:E2.
      * apply Nat.leb_le in E2.
        destruct (raw_spec s b f path bf (bf ++ firstn n p) (skipn n p) Hs) as (s' & R & D & S1 & _). rewrite R. cbn [fst]. intros F.
        exists s'. split; [reflexivity|]. split; [|exact F]. exists (skipn n p). split; [exact S1|]. split; [|exact E2].
        rewrite D, <- !app_assoc. now rewrite (firstn_skipn n p).
      * destruct (raw_spec s b f path bf (bf ++ firstn n p) [] Hs) as (s1 & R1 & D1 & S1 & _). rewrite R1.
        destruct (raw_spec s1 b f path [] (skipn n p) [] S1) as (s2 & R2 & D2 & S2 & _). rewrite R2. cbn [fst]. intros F.
        exists s2. split; [reflexivity|]. split; [|exact F]. exists []. split; [exact S2|]. split; [|cbn; lia].
        rewrite D2, D1, app_nil_r, <- !app_assoc. now rewrite (firstn_skipn n p).
Qed.

Lemma readfrom_good s b f path acc p : good s b f path acc ->
  exists s', bw_readfrom A s b p = (s', true) /\ good s' b f path (acc ++ p) /\ frame s s' b.
Proof.
  intros G. pose proof G as ([|x bf] & Hs & Hd & Hl).
  - destruct (readfrom_spec s b f path p Hs) as (s' & R & D & K & F). exists s'. split; [exact R|]. split; [|exact F].
    exists []. rewrite D, app_nil_r. rewrite app_nil_r in Hd. split; [exact K | split; [now rewrite Hd | cbn; lia]].
  - unfold bw_readfrom. destruct Hs as [Hb Hf]. rewrite Hb. cbn [bw_err bw_buf]. now apply write_good.
Qed.

Lemma good_flush s b f path acc : good s b f path acc ->
  let s' := fst (bw_flush A s b) in dsk A s' path = acc /\ frame s s' b.
Proof. intros (bf & Hs & <- & _). destruct (flush_spec s b f path bf Hs) as (D & _ & F). now split. Qed.

(* no premise that the writers differ: the writers of different paths are different writers *)
Lemma sink_frame s s' b' b f path bf : frame s s' b' -> wpath s b' <> path -> sink s b f path bf -> sink s' b f path bf.
Proof.
  intros (d & bs & -> & _ & B & _) Hp Hs. pose proof Hs as [H1 H2]. split; [|exact H2]. unfold buf. cbn. rewrite B; [exact H1|].
  intros ->. now rewrite (sink_wpath _ _ _ _ _ Hs) in Hp.
Qed.

Lemma good_frame s s' b' b f path acc : frame s s' b' -> wpath s b' <> path -> good s b f path acc -> good s' b f path acc.
Proof.
  intros F Hp (bf & Hs & Hd & Hl). exists bf. split; [now apply (sink_frame s s' b')|]. split; [|exact Hl].
  rewrite (frame_dsk s s' b' path F); [exact Hd | now apply not_eq_sym].
Qed.

Lemma good_wpath s b f path acc : good s b f path acc -> wpath s b = path.
Proof. intros (bf & K & _). exact (sink_wpath _ _ _ _ _ K). Qed.

Lemma frame_rest s s' b : frame s s' b -> nd A s' = nd A s /\ logpath A s' = logpath A s /\ outvar A s' = outvar A s.
Proof. intros (d & bs & -> & _). auto. Qed.

Variable c : cfg.

Definition lpart (x : stream) (p : bytes) : bytes := match x with Out => p | Err => if c_stderr c then [] else p end.
Definition epart (x : stream) (p : bytes) : bytes := match x with Err => p | Out => [] end.

(* the wiring of attempt j; the log sink, the stdout: sink and the stderr: sink (never buffered, never flushed) with what
   each has accepted *)
Definition node_ok (j : nat) (s : st A) : Prop :=
  logpath A s = p_log j /\ brk_o A s = false /\ brk_e A s = false /\ n_done (nd A s) = false /\
  w_out A s = wire_out c (nd A s) /\ w_err A s = wire_err c (nd A s) /\ shared A s = is_shared (nd A s).
Definition log_inv (j : nat) (s : st A) (acc : bytes) : Prop :=
  exists lw lf, n_logW (nd A s) = Some lw /\ good s lw lf (p_log j) acc.
Definition out_inv (s : st A) (acc : bytes) : Prop :=
  if c_stdout c then exists ow of, n_outW (nd A s) = Some ow /\ good s ow of P_STDOUT acc else n_outW (nd A s) = None.
Definition err_inv (s : st A) (acc : bytes) : Prop :=
  if c_stderr c then exists ew ef, n_errW (nd A s) = Some ew /\ sink s ew ef P_STDERR [] /\ dsk A s P_STDERR = acc
  else n_errW (nd A s) = None.

Lemma log_inv_frame j s s' b acc : frame s s' b -> wpath s b <> p_log j -> log_inv j s acc -> log_inv j s' acc.
Proof.
  intros F Hp (lw & lf & H1 & G). pose proof (good_frame _ _ _ _ _ _ _ F Hp G) as G'.
  destruct F as (d & bs & -> & _). now exists lw, lf.
Qed.
Lemma out_inv_frame s s' b acc : frame s s' b -> wpath s b <> P_STDOUT -> out_inv s acc -> out_inv s' acc.
Proof.
  unfold out_inv. intros F Hp H. destruct (c_stdout c); [|destruct F as (d & bs & -> & _); exact H].
  destruct H as (ow & of & H1 & G). pose proof (good_frame _ _ _ _ _ _ _ F Hp G) as G'.
  destruct F as (d & bs & -> & _). now exists ow, of.
Qed.
Lemma err_inv_frame s s' b acc : frame s s' b -> wpath s b <> P_STDERR -> err_inv s acc -> err_inv s' acc.
Proof.
  unfold err_inv. intros F Hp H. destruct (c_stderr c); [|destruct F as (d & bs & -> & _); exact H].
  destruct H as (ew & ef & H1 & K & D). pose proof (sink_frame _ _ _ _ _ _ _ F Hp K) as K'.
  rewrite <- (frame_dsk _ _ _ P_STDERR F) in D by now apply not_eq_sym.
  destruct F as (d & bs & -> & _). now exists ew, ef.
Qed.

(* what the log sink, the stdout: sink, the capture buffer and the stderr: sink have accepted (the two files were not
   truncated: O and E start with what earlier attempts left there) *)
Record running (j : nat) (s : st A) (Ll O Lc E : bytes) : Prop := {
  r_node : node_ok j s;
  r_log : log_inv j s Ll;
  r_out : out_inv s O;
  r_err : err_inv s E;
  r_cap : c_output c = true -> capbuf A s = Lc;
  r_future : forall i, j < i -> dsk A s (p_log i) = [] }.

(* a write through one of the three writers: the sink it belongs to is re-established by the caller *)
Lemma running_frame j s s' b Ll O Lc E Ll' O' E' : running j s Ll O Lc E -> frame s s' b ->
  wpath s b = p_log j \/ wpath s b = P_STDOUT \/ wpath s b = P_STDERR ->
  log_inv j s' Ll' -> out_inv s' O' -> err_inv s' E' -> running j s' Ll' O' Lc E'.
Proof.
  intros [Hn _ _ _ Hc Hf] F Hp Hl Ho He. constructor; try assumption.
  - destruct F as (d & bs & -> & _). exact Hn.
  - destruct F as (d & bs & -> & _). exact Hc.
  - intros i Hi. rewrite (frame_dsk _ _ _ _ F); [now apply Hf|]. unfold p_log, P_STDOUT, P_STDERR in *. lia.
Qed.

Lemma upd_log j s Ll O Lc E p (direct : bool) : running j s Ll O Lc E ->
  forall lw, n_logW (nd A s) = Some lw ->
  exists s', (if direct then bw_readfrom A s lw p else bw_write A s lw p) = (s', true) /\ running j s' (Ll ++ p) O Lc E /\
             nd A s' = nd A s.
Proof.
  intros Hr lw' Hlw'. destruct (r_log _ _ _ _ _ _ Hr) as (lw & lf & HlW & G).
  rewrite HlW in Hlw'. injection Hlw' as <-. pose proof (good_wpath _ _ _ _ _ G) as Hp.
  assert (Hw : exists s', (if direct then bw_readfrom A s lw p else bw_write A s lw p) = (s', true) /\
                          good s' lw lf (p_log j) (Ll ++ p) /\ frame s s' lw)
    by (destruct direct; [now apply readfrom_good | now apply write_good]).
  destruct Hw as (s' & W & G' & F). destruct (frame_rest _ _ _ F) as (N & _).
  exists s'. split; [exact W|]. split; [|exact N].
  apply (running_frame j s s' lw Ll O Lc E); auto.
  - exists lw, lf. now rewrite N.
  - apply (out_inv_frame s s' lw); [exact F | rewrite Hp; discriminate | apply Hr].
  - apply (err_inv_frame s s' lw); [exact F | rewrite Hp; discriminate | apply Hr].
Qed.

Lemma upd_out j s Ll O Lc E p : running j s Ll O Lc E ->
  forall ow, n_outW (nd A s) = Some ow -> c_stdout c = true ->
  exists s', bw_write A s ow p = (s', true) /\ running j s' Ll (O ++ p) Lc E /\ nd A s' = nd A s.
Proof.
  intros Hr ow' How' Hso. pose proof (r_out _ _ _ _ _ _ Hr) as Ho. unfold out_inv in Ho. rewrite Hso in Ho.
  destruct Ho as (ow & of & H1 & G). rewrite H1 in How'. injection How' as <-. pose proof (good_wpath _ _ _ _ _ G) as Hp.
  destruct (write_good s ow of P_STDOUT _ p G) as (s' & W & G' & F). destruct (frame_rest _ _ _ F) as (N & _).
  exists s'. split; [exact W|]. split; [|exact N].
  apply (running_frame j s s' ow Ll O Lc E); auto.
  - apply (log_inv_frame j s s' ow); [exact F | rewrite Hp; discriminate | apply Hr].
  - unfold out_inv. rewrite Hso, N. now exists ow, of.
  - apply (err_inv_frame s s' ow); [exact F | rewrite Hp; discriminate | apply Hr].
Qed.

Lemma upd_err j s Ll O Lc E p : running j s Ll O Lc E ->
  forall ew, n_errW (nd A s) = Some ew -> c_stderr c = true ->
  exists s', bw_readfrom A s ew p = (s', true) /\ running j s' Ll O Lc (E ++ p).
Proof.
  intros Hr ew' Hew' Hse. pose proof (r_err _ _ _ _ _ _ Hr) as He. unfold err_inv in He. rewrite Hse in He.
  destruct He as (ew & ef & H1 & K & D). rewrite H1 in Hew'. injection Hew' as <-.
  destruct (readfrom_spec s ew ef P_STDERR p K) as (s' & W & D' & K' & F). pose proof (sink_wpath _ _ _ _ _ K) as Hp.
  exists s'. split; [exact W|].
  apply (running_frame j s s' ew Ll O Lc E); auto.
  - apply (log_inv_frame j s s' ew); [exact F | rewrite Hp; discriminate | apply Hr].
  - apply (out_inv_frame s s' ew); [exact F | rewrite Hp; discriminate | apply Hr].
  - unfold err_inv. rewrite Hse, D', D, (proj1 (frame_rest _ _ _ F)). now exists ew, ef.
Qed.

Lemma upd_cap j s Ll O Lc E p : running j s Ll O Lc E ->
  running j (set_exec A s (w_out A s) (w_err A s) (shared A s) (capbuf A s ++ p) (brk_o A s) (brk_e A s)) Ll O (Lc ++ p) E.
Proof. intros [Hn Hl Ho He Hc Hf]. constructor; try assumption. intros H. cbn. now rewrite (Hc H). Qed.

(* a sink that is not configured has accepted whatever one likes *)
Lemma running_O j s Ll O O' Lc E : c_stdout c = false -> running j s Ll O Lc E -> running j s Ll O' Lc E.
Proof. intros Hs [Hn Hl Ho He Hc Hf]. constructor; try assumption. unfold out_inv in *. now rewrite Hs in *. Qed.
Lemma running_Lc j s Ll O Lc Lc' E : c_output c = false -> running j s Ll O Lc E -> running j s Ll O Lc' E.
Proof. intros Hs [Hn Hl Ho He Hc Hf]. constructor; try assumption. congruence. Qed.
Lemma running_E j s Ll O Lc E E' : c_stderr c = false -> running j s Ll O Lc E -> running j s Ll O Lc E'.
Proof. intros Hs [Hn Hl Ho He Hc Hf]. constructor; try assumption. unfold err_inv in *. now rewrite Hs in *. Qed.

(* a chunk through the wiring of stdout: the log writer alone (ReadFrom), or the MultiWriter [log; stdout:?; capture?] *)
Lemma out_running j s Ll O Lc E p : running j s Ll O Lc E ->
  exists s', match wire_out c (nd A s) with WDirect b => bw_readfrom A s b p | WMulti l => write_leaves A s l p end = (s', true) /\
             running j s' (Ll ++ p) (O ++ p) (Lc ++ p) E.
Proof.
  intros Hr. destruct (r_log _ _ _ _ _ _ Hr) as (lw & lf & HlW & _).
  pose proof (r_out _ _ _ _ _ _ Hr) as Hout. unfold out_inv in Hout. unfold wire_out. rewrite HlW.
  destruct (c_stdout c) eqn:Eso.
  - destruct Hout as (ow & of & H1 & _). rewrite H1.
    destruct (upd_log j s Ll O Lc E p false Hr lw HlW) as (s1 & W1 & R1 & N1). rewrite <- N1 in H1.
    destruct (upd_out j s1 _ _ _ _ p R1 ow H1 Eso) as (s2 & W2 & R2 & _).
    destruct (c_output c) eqn:Eo; cbn [app write_leaves]; rewrite W1, W2; cbn [fst]; eexists; (split; [reflexivity|]).
    + now apply upd_cap.
    + now apply (running_Lc _ _ _ _ Lc).
  - rewrite Hout. destruct (c_output c) eqn:Eo.
    + destruct (upd_log j s Ll O Lc E p false Hr lw HlW) as (s1 & W1 & R1 & _).
      cbn [app write_leaves]. rewrite W1. eexists. split; [reflexivity|]. apply (running_O _ _ _ O); [exact Eso | now apply upd_cap].
    + destruct (upd_log j s Ll O Lc E p true Hr lw HlW) as (s1 & W1 & R1 & _).
      exists s1. split; [exact W1|]. apply (running_O _ _ _ O); [exact Eso|]. now apply (running_Lc _ _ _ _ Lc).
Qed.

Lemma deliver_running j s Ll O Lc E x p : running j s Ll O Lc E ->
  running j (deliver A s x p) (Ll ++ lpart x p) (O ++ lpart x p) (Lc ++ lpart x p) (E ++ epart x p).
Proof.
  intros Hr. destruct (r_node _ _ _ _ _ _ Hr) as (_ & Hbo & Hbe & _ & Hwo & Hwe & _).
  unfold deliver. replace (broken_of A s x) with false by (destruct x; cbn; [|destruct (shared A s)]; congruence).
  destruct (out_running j s Ll O Lc E p Hr) as (s1 & W1 & R1).
  destruct x; cbn [lpart epart].
  - rewrite Hwo, W1, app_nil_r. exact R1.
  - rewrite Hwe. unfold wire_err. pose proof (r_err _ _ _ _ _ _ Hr) as Herr. unfold err_inv in Herr.
    destruct (c_stderr c) eqn:Ese.
    + (* stderr has its own file *)
      destruct Herr as (ew & ef & E1 & _). rewrite E1.
      destruct (upd_err j s Ll O Lc E p Hr ew E1 Ese) as (s2 & -> & R2). now rewrite !app_nil_r.
    + rewrite Herr, W1. now apply (running_E _ _ _ _ _ E).
Qed.

(* setup is straight-line code: OpenOrCreateFile + bufio.NewWriter up to three times, on consecutive descriptors and
   writers.  Evaluated, every file is rewritten with its own content and each new writer is looked up in the maps.
   (s is taken apart and ONE lazy pass evaluates: every setter copies all fourteen fields of its argument, so unfolding
   open / new_buf without reducing the projections yields a term exponential in the nesting depth.) *)
Lemma setup_spec j s : let s' := setup A c j s in
  (forall q, dsk A s' q = dsk A s q) /\ logpath A s' = p_log j /\ n_done (nd A s') = false /\
  (exists lw lf, n_logW (nd A s') = Some lw /\ sink s' lw lf (p_log j) []) /\
  (if c_stdout c then exists ow of, n_outW (nd A s') = Some ow /\ sink s' ow of P_STDOUT []
   else n_outW (nd A s') = n_outW (nd A s)) /\
  (if c_stderr c then exists ew ef, n_errW (nd A s') = Some ew /\ sink s' ew ef P_STDERR []
   else n_errW (nd A s') = n_errW (nd A s)).
Proof.
  destruct s. unfold setup, sink, buf, fdd, dsk.
  destruct (c_stdout c), (c_stderr c); lazy -[mget mset p_log P_STDOUT P_STDERR].
  all: split; [intros q; now rewrite !mget_mset_self|].
  all: repeat split; try reflexivity.
  all: do 2 eexists; split; [reflexivity|]; split; [rewrite ?mget_mset_other by lia; apply mget_mset_same|].
  all: rewrite ?mget_mset_other by lia; apply mget_mset_same.
Qed.

Lemma sink_good s b f path : sink s b f path [] -> good s b f path (dsk A s path).
Proof. intros K. exists []. rewrite app_nil_r. split; [exact K|]. split; [reflexivity | cbn; lia]. Qed.

(* the state between two attempts (j attempts have run and were torn down) *)
Record idle (j : nat) (s : st A) (O E : bytes) : Prop := {
  i_outW : c_stdout c = false -> n_outW (nd A s) = None;
  i_errW : c_stderr c = false -> n_errW (nd A s) = None;
  i_o : c_stdout c = true -> dsk A s P_STDOUT = O;
  i_e : c_stderr c = true -> dsk A s P_STDERR = E;
  i_future : forall i, j <= i -> dsk A s (p_log i) = [] }.

Lemma start_running j s O E : idle j s O E -> running j (exec_start A c (setup A c j s)) [] O [] E.
Proof.
  intros [HoW HeW Ho He Hfut]. generalize (setup_spec j s). cbv zeta. generalize (setup A c j s) as s'.
  intros s' (D & LP & Dn & (lw & lf & Hl & Kl) & Hout & Herr).
  (* exec_start only sets the wiring *)
  constructor.
  - repeat split; assumption || reflexivity.
  - change (log_inv j s' []). exists lw, lf. split; [exact Hl|]. rewrite <- (Hfut j), <- D by lia. now apply sink_good.
  - change (out_inv s' O). unfold out_inv. destruct (c_stdout c).
    + destruct Hout as (ow & of & H & K). exists ow, of. split; [exact H|]. rewrite <- Ho, <- D by reflexivity. now apply sink_good.
    + rewrite Hout. now apply HoW.
  - change (err_inv s' E). unfold err_inv. destruct (c_stderr c).
    + destruct Herr as (ew & ef & H & K). exists ew, ef. split; [exact H|]. split; [exact K|]. rewrite <- He by reflexivity. apply D.
    + rewrite Herr. now apply HeW.
  - reflexivity.
  - intros i Hi. change (dsk A s' (p_log i) = []). rewrite D. apply Hfut. lia.
Qed.

Lemma close_opt_rest s o : (forall q, dsk A (close_opt A s o) q = dsk A s q) /\ nd A (close_opt A s o) = nd A s /\
  logpath A (close_opt A s o) = logpath A s /\ outvar A (close_opt A s o) = outvar A s.
Proof. destruct o; repeat split; reflexivity. Qed.

(* teardown flushes each writer on its own.  Whatever the state of the stdout: writer (buffered bytes, a failing target, a
   sticky error): when the node is torn down, what the log writer still buffers reaches the log file.  (node.go flushes
   logWriter and stdoutWriter one by one and keeps the last error; it does not stop at the first.) *)
Theorem teardown_flushes_log : forall s lw lf path bl,
  n_done (nd A s) = false -> n_logW (nd A s) = Some lw -> sink s lw lf path bl ->
  (forall ow, n_outW (nd A s) = Some ow -> wpath s ow <> path) ->
  dsk A (teardown A s) path = dsk A s path ++ bl.
Proof.
  intros s lw lf path bl Hd HlW Hsk Hout.
  unfold teardown. rewrite Hd, HlW. cbn [flush_opt].
  set (s1 := set_nd A s _).
  destruct (flush_spec s1 lw lf path bl Hsk) as (FD1 & _ & FR1).
  set (s2 := fst (bw_flush A s1 lw)) in *.
  rewrite !(proj1 (close_opt_rest _ _)).
  destruct (n_outW (nd A s)) as [ow|] eqn:Eo; cbn [flush_opt]; [|exact FD1].
  rewrite (frame_dsk _ _ _ path (flush_frame s2 ow)); [exact FD1|].
  rewrite (frame_wpath _ _ _ ow FR1). exact (not_eq_sym (Hout ow eq_refl)).
Qed.

Lemma end_running j s L O E : running j s L O L E ->
  running j (exec_end A c s) L O L E /\ (c_output c = true -> outvar A (exec_end A c s) = Some L).
Proof.
  intros Hr. unfold exec_end. destruct (c_output c) eqn:Eo; [|split; [exact Hr | discriminate]].
  split; [destruct Hr; constructor; assumption | intros _; cbn; now rewrite (r_cap _ _ _ _ _ _ Hr Eo)].
Qed.

(* teardown's second flush: the stdout: writer, if there is one *)
Lemma flush_out s O : out_inv s O -> let s' := flush_opt A s (n_outW (nd A s)) in
  (c_stdout c = true -> dsk A s' P_STDOUT = O) /\ (forall q, q <> P_STDOUT -> dsk A s' q = dsk A s q) /\
  nd A s' = nd A s /\ logpath A s' = logpath A s /\ outvar A s' = outvar A s.
Proof.
  unfold out_inv. destruct (c_stdout c).
  - intros (ow & of & -> & G). cbn [flush_opt]. destruct (good_flush s ow of P_STDOUT O G) as (D & F).
    split; [auto|]. split; [|exact (frame_rest _ _ _ F)].
    intros q Hq. apply (frame_dsk _ _ _ q F). now rewrite (good_wpath _ _ _ _ _ G).
  - intros ->. cbn. repeat split; auto; discriminate.
Qed.

Lemma teardown_idle j s L O Lc E : running j s L O Lc E -> let s' := teardown A s in
  idle (S j) s' O E /\ dsk A s' (p_log j) = L /\ logpath A s' = p_log j /\ outvar A s' = outvar A s.
Proof.
  intros [Hn Hl Ho He _ Hf]. destruct Hn as (Hlp & _ & _ & Hdn & _). destruct Hl as (lw & lf & HlW & Gl).
  unfold teardown. rewrite Hdn, HlW. cbn [flush_opt]. set (s1 := set_nd A s _).
  (* the log writer *)
  destruct (good_flush s1 lw lf (p_log j) L Gl) as (D1 & F1). set (s2 := fst (bw_flush A s1 lw)) in *.
  pose proof (good_wpath _ _ _ _ _ Gl : wpath s1 lw = p_log j) as P1. destruct (frame_rest _ _ _ F1) as (N2 & LP2 & OV2).
  (* the stdout: writer *)
  destruct (flush_out s2 O) as (O3 & D3 & N3 & LP3 & OV3); [apply (out_inv_frame s1 s2 lw); [exact F1 | rewrite P1; discriminate | exact Ho]|].
  rewrite N2 in O3, D3, N3, LP3, OV3. set (s3 := flush_opt A s2 _) in *.
  destruct (close_opt_rest s3 (n_logF (nd A s))) as (D4 & N4 & LP4 & OV4). set (s4 := close_opt A s3 _) in *.
  destruct (close_opt_rest s4 (n_outF (nd A s))) as (D5 & N5 & LP5 & OV5).
  assert (Dk : forall q, q <> P_STDOUT -> q <> p_log j -> dsk A (close_opt A s4 (n_outF (nd A s))) q = dsk A s q).
  { intros q Hq1 Hq2. rewrite D5, D4, D3 by exact Hq1. apply (frame_dsk _ _ _ q F1). now rewrite P1. }
  cbn zeta. split; [|split; [|split]].
  - constructor.
    + intros Hs. rewrite N5, N4, N3. unfold out_inv in Ho. now rewrite Hs in Ho.
    + intros Hs. rewrite N5, N4, N3. unfold err_inv in He. now rewrite Hs in He.
    + intros Hs. rewrite D5, D4. now apply O3.
    + intros Hs. rewrite Dk by (unfold p_log, P_STDOUT, P_STDERR; lia). unfold err_inv in He. rewrite Hs in He.
      now destruct He as (ew & ef & _ & _ & De).
    + intros i Hi. rewrite Dk by (unfold p_log, P_STDOUT; lia). apply Hf. lia.
  - rewrite D5, D4, D3 by (unfold p_log, P_STDOUT; lia). exact D1.
  - now rewrite LP5, LP4, LP3, LP2.
  - now rewrite OV5, OV4, OV3, OV2.
Qed.

(* what can happen while the step prints: the MultiWriter [log; best-effort stdout; capture?] gets a chunk, or the
   stdout: target starts to reject writes (a volume runs full: modelled as its descriptor failing from then on) *)
Inductive mev := MWrite (p : bytes) | MFail.
Definition mstep (l : list leaf) (of : nat) (s : st A) (e : mev) : st A :=
  match e with MWrite p => fst (write_leaves A s l p) | MFail => close A s of end.
Definition written (evs : list mev) : bytes := flat_map (fun e => match e with MWrite p => p | MFail => [] end) evs.

Definition log_good (s : st A) (lw lf path ow : nat) (L : bytes) : Prop :=
  exists bl, sink s lw lf path bl /\ dsk A s path ++ bl = L /\ length bl <= BUFSZ /\ wpath s ow <> path.

Lemma log_good_iff s lw lf path ow L : log_good s lw lf path ow L <-> good s lw lf path L /\ wpath s ow <> path.
Proof. unfold log_good, good. split; [intros (bl & H1 & H2 & H3 & H4) | intros [(bl & H1 & H2 & H3) H4]]; eauto 6. Qed.

(* closing another descriptor: the sink stays, and every writer keeps the path behind it (a closed descriptor still
   names its file) *)
Lemma close_good s of b f path acc : of <> f -> good s b f path acc -> good (close A s of) b f path acc.
Proof.
  intros Hf (bf & [Hb Hfd] & Hd & Hl). exists bf. split; [split; [exact Hb|] | now split].
  unfold close, fdd. cbn. now rewrite mget_mset_other by now apply not_eq_sym.
Qed.
Lemma close_wpath s of b : wpath (close A s of) b = wpath s b.
Proof.
  unfold wpath, close, fdd, buf. cbn. destruct (Nat.eq_dec (bw_fd A (mget (no_buf A) (bufs A s) b)) of) as [->|Hn].
  - now rewrite mget_mset_same.
  - now rewrite mget_mset_other by exact Hn.
Qed.

(* l_tail: what wire_out puts behind the two writers - nothing, or the capture buffer of `output:` *)
Lemma mstep_log_good l_tail s lw lf path ow of L e :
  l_tail = [] \/ l_tail = [LCap] -> of <> lf -> log_good s lw lf path ow L ->
  log_good (mstep (LBuf lw :: LBest ow :: l_tail) of s e) lw lf path ow
           (L ++ match e with MWrite p => p | MFail => [] end).
Proof.
  rewrite !log_good_iff. intros Ht Hf [G Hp].
  destruct e as [p|]; cbn [mstep].
  - cbn [write_leaves].
    destruct (write_good s lw lf path L p G) as (s1 & W1 & G1 & F1). rewrite W1.
    pose proof (write_frame s1 ow p) as F2. set (s2 := fst (bw_write A s1 ow p)) in *.
    assert (Hp1 : wpath s1 ow <> path) by now rewrite (frame_wpath _ _ _ ow F1).
    assert (G2 : good s2 lw lf path (L ++ p) /\ wpath s2 ow <> path)
      by (split; [exact (good_frame s1 s2 ow lw lf path _ F2 Hp1 G1) | now rewrite (frame_wpath _ _ _ ow F2)]).
    destruct Ht as [->| ->]; cbn [write_leaves fst]; exact G2.
  - rewrite app_nil_r, close_wpath. split; [now apply close_good | exact Hp].
Qed.

(* every chunk handed to the MultiWriter reaches the log sink (file ++ buffer), and - by teardown_flushes_log - the
   log file, whatever the stdout: redirect does and whenever it starts to fail *)
Theorem log_gets_all : forall l_tail evs s lw lf path ow of L,
  l_tail = [] \/ l_tail = [LCap] -> of <> lf -> log_good s lw lf path ow L ->
  log_good (fold_left (mstep (LBuf lw :: LBest ow :: l_tail) of) evs s) lw lf path ow (L ++ written evs).
Proof.
  intros l_tail evs. induction evs as [|e evs IH]; intros s lw lf path ow of L Ht Hf Hg.
  - cbn. now rewrite app_nil_r.
  - cbn [fold_left written flat_map]. rewrite app_assoc. apply IH; try assumption.
    now apply mstep_log_good.
Qed.

Lemma log_of_cons x p cs : log_of A c ((x, p) :: cs) = lpart x p ++ log_of A c cs.
Proof. reflexivity. Qed.
Lemma err_of_cons x p cs : err_of A ((x, p) :: cs) = epart x p ++ err_of A cs.
Proof. now destruct x. Qed.

Lemma chunks_running j cs : forall s Ll O Lc E, running j s Ll O Lc E ->
  running j (exec A c s (map (fun ch => AChunk A (fst ch) (snd ch)) cs))
    (Ll ++ log_of A c cs) (O ++ log_of A c cs) (Lc ++ log_of A c cs) (E ++ err_of A cs).
Proof.
  induction cs as [|[x p] cs IH]; intros s Ll O Lc E Hr.
  - cbn. now rewrite !app_nil_r.
  - rewrite log_of_cons, err_of_cons, !app_assoc. apply (IH (deliver A s x p)). now apply deliver_running.
Qed.

Lemma attempts_ok : forall atts j s O E, atts <> [] -> idle j s O E ->
  let s' := exec A c s (program A j atts) in
  dsk A s' (logpath A s') = log_of A c (last atts []) /\
  (c_stdout c = true -> is_suffix A (log_of A c (last atts [])) (dsk A s' P_STDOUT)) /\
  (c_stderr c = true -> is_suffix A (err_of A (last atts [])) (dsk A s' P_STDERR)) /\
  (c_output c = true -> outvar A s' = Some (log_of A c (last atts []))).
Proof.
  induction atts as [|cs rest IH]; intros j s O E Hne Hi; [contradiction|].
  cbn [program]. unfold body, exec. cbn [app fold_left step]. rewrite <- app_assoc, fold_left_app. cbn [app fold_left step].
  pose proof (chunks_running j cs _ _ _ _ _ (start_running j s O E Hi)) as Hr. unfold exec in Hr. cbn [app] in Hr.
  destruct (end_running j _ _ _ _ Hr) as (Hr' & Hov).
  destruct (teardown_idle j _ _ _ _ _ Hr') as (Hid & Hlog & Hlp & Hov').
  destruct rest as [|cs2 rest'].
  - cbn [program fold_left last]. split; [rewrite Hlp; exact Hlog|]. split; [|split].
    + intros Hs. exists O. now rewrite (i_o _ _ _ _ Hid Hs).
    + intros Hs. exists E. now rewrite (i_e _ _ _ _ Hid Hs).
    + intros Ho. rewrite Hov'. now apply Hov.
  - change (last (cs :: cs2 :: rest') []) with (last (cs2 :: rest') []).
    apply (IH (S j) _ _ _ ltac:(discriminate) Hid).
Qed.

Lemma idle_init : idle 0 (init (A := A)) [] [].
Proof. constructor; intros; reflexivity. Qed.

Theorem complete_all : forall atts, atts <> [] -> complete A c (last atts []) (run A c atts).
Proof.
  intros atts Hne. destruct (attempts_ok atts 0 _ [] [] Hne idle_init) as (H1 & H2 & H3 & _).
  unfold complete, run. auto.
Qed.

Theorem capture_all : forall atts, atts <> [] -> c_output c = true ->
  outvar A (run A c atts) = Some (log_of A c (last atts [])).
Proof.
  intros atts Hne Ho. destruct (attempts_ok atts 0 _ [] [] Hne idle_init) as (_ & _ & _ & H4). now apply H4.
Qed.

Lemma merge_app_l x y z a : is_merge A x y z -> is_merge A (a ++ x) y (a ++ z).
Proof. intros H. induction a as [|e a IH]; [exact H | now constructor]. Qed.
Lemma merge_app_r x y z a : is_merge A x y z -> is_merge A x (a ++ y) (a ++ z).
Proof. intros H. induction a as [|e a IH]; [exact H | now constructor]. Qed.

Theorem log_of_merge : forall cs,
  is_merge A (out_of A cs) (if c_stderr c then [] else err_of A cs) (log_of A c cs).
Proof.
  intros cs. induction cs as [|[x p] cs IH]; [destruct (c_stderr c); constructor|].
  unfold out_of, err_of, log_of in *. cbn [flat_map fst snd]. destruct x.
  - rewrite app_nil_l. destruct (c_stderr c); now apply merge_app_l.
  - rewrite app_nil_l. destruct (c_stderr c); [exact IH | now apply merge_app_r].
Qed.

End Proofs.

(* The former counter-examples (F12a, F12c, the failing stdout: target) and one run with every setting on, by evaluation of
   the model. *)
(* before fix 8880f0d (Node.done was never reset) the log of the second attempt stayed empty  [F12a] *)
Example retry_stdout_fixed :
  let r := run nat (mkc true false false false) [[(Out, [1])]; [(Out, [2])]] in
  dsk nat r (logpath nat r) = [2] /\ dsk nat r P_STDOUT = [1; 2].
Proof. vm_compute. split; reflexivity. Qed.

Example retry_output_fixed :
  let r := run nat (mkc false false true false) [[(Out, [1])]; [(Out, [2])]] in
  dsk nat r (logpath nat r) = [2] /\ outvar nat r = Some [2].
Proof. vm_compute. split; reflexivity. Qed.

(* before fix f5eca82 (the capture went through an undrained pipe) 65537 bytes blocked the step for good  [F12c] *)
Example big_output_fixed :
  let cs := [(Out, repeat 0 (N.to_nat 32768)); (Out, repeat 0 (N.to_nat 32768)); (Out, [0])] in
  let r := run nat (mkc false false true false) [cs] in
  N.of_nat (length (dsk nat r (logpath nat r))) = 65537%N /\
  match outvar nat r with Some v => N.of_nat (length v) = 65537%N | None => False end.
Proof. vm_compute. split; reflexivity. Qed.

(* every setting on, three attempts, chunks that exercise bypass and fill-flush *)
Example complete_all_example :
  let c := mkc true true true true in
  let atts := [[(Out, repeat 7 5000); (Err, [1; 2; 3]); (Out, repeat 8 3000)]; [(Out, [4])]; [(Err, [9]); (Out, repeat 5 4097); (Out, [6])]] in
  let r := run nat c atts in
  atts <> [] /\ dsk nat r (logpath nat r) = repeat 5 4097 ++ [6] /\ dsk nat r P_STDERR = [1; 2; 3; 9] /\
  outvar nat r = Some (repeat 5 4097 ++ [6]).
Proof. intros c atts r. split; [discriminate|]. split; [reflexivity | split; reflexivity]. Qed.

(* a `stdout:` target that rejects every write (the descriptor of the stdout writer fails): the log still gets all *)
Example teardown_log_with_failing_stdout :
  let c := mkc true false false false in
  let s := exec nat c init (body nat 0 [(Out, [1; 2; 3]); (Err, [4])]) in
  let s' := match n_outF (nd nat s) with Some f => close nat s f | None => s end in   (* the target starts failing *)
  dsk nat (teardown nat s') (logpath nat s') = [1; 2; 3; 4] /\ dsk nat (teardown nat s') P_STDOUT = [].
Proof. vm_compute. split; reflexivity. Qed.

(* before fix 78722d0 the first failed write of the stdout: redirect ended the copy and the log lost what followed *)
Example failing_stdout_beyond_buffer_fixed :
  let c := mkc true false false false in
  let s0 := exec nat c init [ASetup nat 0; AStart nat] in
  let s1 := match n_outF (nd nat s0) with Some f => close nat s0 f | None => s0 end in     (* /dev/full *)
  let s2 := exec nat c s1 [AChunk nat Out (repeat 1 3000); AChunk nat Err (repeat 2 3000); AChunk nat Out [3]; AEnd nat; ATeardown nat] in
  dsk nat s2 (logpath nat s2) = repeat 1 3000 ++ repeat 2 3000 ++ [3] /\ dsk nat s2 P_STDOUT = [].
Proof. vm_compute. split; reflexivity. Qed.
