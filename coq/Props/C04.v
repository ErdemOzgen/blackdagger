(* C04 - run outcome and lifecycle handlers match what happened.
   Model: Sched/Model.v (`overall` mirrors Scheduler.Status clause by clause - incl. the decided outcome of fix 08917f8 -,
   HBegin/HStart/... mirror scheduler.go:258-300), Agent/Run.v.  Proofs: Sched/Step.v, Sched/ProofsFinal.v, Sched/ProofsStop.v,
   Sched/Replay2Proofs.v, Agent/RunProofs.v.
   Examples: Sched/Examples2.v.  Tie to the code: tools/props/C04.py (power-set trace validation of the real scheduler
   incl. stop requests at every visible event index, every subset of handlers).
   Premise: norepeat c (no repeatPolicy step; the proofs of C04_handlers and C04_outcome_stable do not use it).  Since fix 614b59e no premise about the done channel is needed (before it
   "finished means ran" was false for Schedule called without one: C04_done_nil_repaired below,
   findings/C04-done-nil-finished-after-failure.json); C04_finished_iff / C04_failed_iff are stated for runs without
   DAG timeout (a timed-out run is labelled failed by decision, DESIGN.md section 6; C05).  Node teardown (log flush) is modelled as infallible. *)
From Coq Require Import List Bool.
Import ListNotations.
From BD.Agent Require Import Run RunProofs.
From BD.Sched Require Import Model Proofs ProofsFinal ProofsStop Replay Replay2 Replay2Proofs Examples Examples2.

(* Once the loop has left (pc = LExited; the handlers are chosen from there, at HBegin, when every worker is gone), in
   every reachable state:
   the run is reported finished iff every step is finished or skipped; *)
Theorem C04_finished_iff : forall c : cfg, norepeat c ->
  forall s, Reach c s -> pc s = LExited -> timedout s = false ->
  (overall c s = OSuccess <-> is_succeed c s = true).
Proof.
  intros c Hn s Hr Hpc Ht. rewrite (proj1 (overall_at_exit c Hn s Hr Hpc Ht)).
  destruct (is_succeed c s), (canceled s); split; congruence.
Qed.
Print Assumptions C04_finished_iff.

(* failed iff some step failed (or could not be set up) and the run was not "stopped before completing"; *)
Theorem C04_failed_iff : forall c : cfg, norepeat c ->
  forall s, Reach c s -> pc s = LExited -> timedout s = false ->
  (overall c s = OError <->
   (~ (canceled s = true /\ is_succeed c s = false) /\ exists i, i < nsteps c /\ st (nd s i) = NError)).
Proof.
  intros c Hn s Hr Hpc Ht. destruct (overall_at_exit c Hn s Hr Hpc Ht) as [-> Hex]. split.
  - destruct (is_succeed c s), (canceled s); try discriminate. intros _. split; [intros [X _]; discriminate X|auto].
  - intros [Hnc (i & Hi & Hei)].
    assert (Es : is_succeed c s = false).
    { destruct (is_succeed c s) eqn:Es; [|reflexivity]. pose proof (proj1 (is_succeed_spec c s) Es i Hi) as X.
      rewrite Hei in X. discriminate. }
    rewrite Es. destruct (canceled s); [exfalso; auto|reflexivity].
Qed.
Print Assumptions C04_failed_iff.

(* canceled iff a stop was requested and not every step is finished or skipped ("stopped before completing") - as long
   as the outcome is not yet decided, i.e. up to the choice of the handlers. *)
Theorem C04_canceled_iff : forall (c : cfg) s, decided s = None ->
  (overall c s = OCancel <-> (canceled s = true /\ is_succeed c s = false)).
Proof.
  intros c s Hdn. unfold overall. rewrite Hdn. unfold computed_overall.
  destruct (canceled s), (is_succeed c s); cbn [andb negb];
    destruct (graph_running c s), (lasterr s), (all_terminal c s); cbn [negb];
    split; intros H; try discriminate; try reflexivity; try (destruct H; discriminate); auto.
Qed.
Print Assumptions C04_canceled_iff.

(* "Finished" means completed - in EVERY reachable state, stopped run or not: a step reported finished did run and its
   last attempt succeeded.  (False before fix ac08004 - F5c.) *)
Theorem C04_finished_means_ran : forall c : cfg, norepeat c ->
  forall s, Reach c s -> dry c = false ->
  forall i, st (nd s i) = NSuccess -> exists fs, outs (nd s i) = true :: fs.
Proof. exact finished_means_ran. Qed.
Print Assumptions C04_finished_means_ran.

(* The handlers: in every execution ls1 ++ HBegin :: ls2 that reaches Done (not a dry run) - with or without stop
   requests, with or without timeout: no handler's turn comes before HBegin; after HBegin no label of the scheduling
   loop or of a step worker occurs (every step has ended: at HBegin every worker is gone); and the handlers whose turn
   comes (hturns: the handler is started, or the set-up of its node fails and it is marked failed without running) are,
   in this order and each once, exactly the configured ones among [handler of the outcome at HBegin; onExit] - onExit
   last.  A handler that cannot be set up does not take the later ones with it. *)
Theorem C04_handlers : forall c : cfg, norepeat c ->
  forall ls1 ls2 s1 s2 s3,
  run c (init c) ls1 = Some s1 -> step c s1 HBegin = Some s2 -> run c s2 ls2 = Some s3 ->
  pc s3 = LDone -> dry c = false ->
  hturns ls1 = [] /\ hturns ls2 = handlers_for c s1 /\
  forallb (fun l => negb (is_node_label l)) ls2 = true /\ gone c s1.
Proof.
  intros c Hn ls1 ls2 s1 s2 s3 H1 H2 H3 Hd Hdry. destruct (hbegin_spec c s1 s2 H2) as (Hp1 & Hg1 & Hg2 & Hp2 & _).
  destruct (handler_phase_run c ls2 s2 s3) as [Hh Hf]; auto; [now rewrite Hp2|].
  rewrite Hp2, Hd in Hh. cbn in Hh. rewrite app_nil_r in Hh.
  repeat split; auto. apply (no_turn_before c ls1 (init c) s1 H1). now rewrite Hp1.
Qed.
Print Assumptions C04_handlers.

(* ... and the handlers whose command is started (hstarts) are, in every run of every configuration, exactly those
   among them whose set-up does not fail. *)
Theorem C04_handlers_started : forall (c : cfg) ls s s', run c s ls = Some s' ->
  hstarts ls = filter (fun h => negb (hsfail c h)) (hturns ls).
Proof.
  intros c ls. induction ls as [|l ls IH]; intros s s' Hr; [reflexivity|].
  simpl in Hr. destruct (step c s l) as [s1|] eqn:Hs; [|discriminate].
  cbn [hstarts hturns flat_map]. fold (hstarts ls). fold (hturns ls).
  rewrite filter_app, <- (IH s1 s' Hr). f_equal.
  (* a handler is started only if its set-up does not fail, and marked failed without running only if it does *)
  destruct l; try reflexivity; cbn [step] in Hs; inv_guard Hs; split_guard; cbn [hstart_of hturn_of filter].
  - match goal with H : hsfail c _ = false |- _ => rewrite H end. reflexivity.
  - match goal with H : hsfail c _ = true |- _ => rewrite H end. reflexivity.
Qed.
Print Assumptions C04_handlers_started.

Theorem C04_handlers_for_outcome : forall (c : cfg) s, exists x, handlers_for c s = filter (hon c) (x ++ [HExit]) /\
  x = match overall c s with OSuccess => [HSuccess] | OError => [HFailure] | OCancel => [HCancel] | _ => [] end.
Proof. intros c s. eexists. split; reflexivity. Qed.
Print Assumptions C04_handlers_for_outcome.

(* The outcome reported once the run is over (what the agent persists) is the outcome the handlers ran for - whatever
   arrives in between, a stop request included.  (False before fix 08917f8 - F4a.) *)
Theorem C04_outcome_stable : forall c : cfg, norepeat c ->
  forall ls1 ls2 s1 s2 s3,
  run c (init c) ls1 = Some s1 -> step c s1 HBegin = Some s2 -> run c s2 ls2 = Some s3 ->
  overall c s3 = overall c s1.
Proof.
  intros c _ ls1 ls2 s1 s2 s3 H1 H2 H3. destruct (hbegin_spec c s1 s2 H2) as (_ & _ & _ & _ & Hd2).
  unfold overall at 1.
  rewrite (run_preserves c (fun s => decided s = Some (overall c s1))) with (s := s2) (ls := ls2) (s' := s3); auto.
  intros s l s' X Hs. now apply (step_flags c _ _ _ Hs).
Qed.
Print Assumptions C04_outcome_stable.

(* If the DAG's own preconditions are unmet the agent does nothing but build the graph, evaluate them and cancel:
   no step, no handler, no probe, no history. *)
Theorem C04_dag_precondition : forall e : env, e_gaccept e = true -> e_has_pre e = true -> e_pre_ok e = false ->
  Run.run e = ([ABuildGraph; AEvalPre; ACancelAll], true).
Proof. exact unmet_dag_precondition. Qed.
Print Assumptions C04_dag_precondition.

(* The tie to the implementation is sound in this direction: a run of the real scheduler that the power-set acceptor
   accepts (stage 0) comes with a REACHABLE state of the model that is Done and shows the observed final node table,
   handler states, Schedule error and Status - so the theorems above, which hold in every reachable state, apply to it.
   (That real traces ARE accepted is what the correspondence measures on every run of the check.) *)
Theorem C04_accept_sound : forall c ivl rivl eps tmo_at fin hfin tr err status k,
  replay2 c ivl rivl eps tmo_at fin hfin tr err status = (0, 0, k) ->
  exists s, Reach c s /\ final2_ok c fin hfin s err status = true.
Proof. exact replay2_sound. Qed.
Print Assumptions C04_accept_sound.

(* (1) A stop of two executing steps: both end canceled, the outcome at HBegin is canceled,
   the handlers are [onCancel; onExit], Done is reached. *)
Example C04_nonvacuous :
  (donech two_steps = true /\ norepeat two_steps) /\
  exists s1 s2 s3, run two_steps (init two_steps) stop2_pre = Some s1 /\
    step two_steps s1 HBegin = Some s2 /\ run two_steps s2 stop2_post = Some s3 /\
    pc s3 = LDone /\ dry two_steps = false /\
    overall two_steps s1 = OCancel /\ hstarts stop2_post = [HCancel; HExit] /\
    map (fun i => st (nd s3 i)) [0; 1] = [NCancel; NCancel] /\ pc s1 = LExited.
Proof. exact (conj stop2_ok stop2_witness). Qed.

(* (2) The F4a scenario in the repaired model: the step fails, onFailure runs, a stop arrives while it runs; the run
   stays reported failed. *)
Example C04_stop_during_handlers_repaired :
  exists s1 s2 s3, run (one_step 1 false) (init (one_step 1 false)) f4a_pre = Some s1 /\
    step (one_step 1 false) s1 HBegin = Some s2 /\ run (one_step 1 false) s2 f4a_post = Some s3 /\
    pc s3 = LDone /\ canceled s3 = true /\ overall (one_step 1 false) s1 = OError /\ hstarts f4a_post = [HFailure; HExit] /\
    overall (one_step 1 false) s3 = OError.
Proof. apply ex_run3. vm_compute. repeat split; reflexivity. Qed.

(* (3) The F5c scenario in the repaired model: the step the loop had committed when the stop arrived is launched
   afterwards, never runs, ends canceled; the run is canceled; onCancel then onExit. *)
Example C04_committed_step_canceled_repaired :
  exists s, run (one_step 1 false) (init (one_step 1 false)) f5c_exec = Some s /\ pc s = LDone /\
    canceled s = true /\ st (nd s 0) = NCancel /\ att (nd s 0) = 0 /\ dry (one_step 1 false) = false /\
    overall (one_step 1 false) s = OCancel /\ hstarts f5c_exec = [HCancel; HExit].
Proof. apply ex_run. vm_compute. repeat split; reflexivity. Qed.

(* (4) The done == nil scenario in the repaired model (fix 614b59e): Schedule called without a done channel; the command
   fails on its own after the stop flag is set and before the Signal pass reaches its node; the node is labelled
   canceled, the run canceled.  (Before the fix the step was reported finished although its only attempt had failed -
   reproduced on the real scheduler, findings/C04-done-nil-finished-after-failure.json.) *)
Example C04_done_nil_repaired :
  donech one_step_nodone = false /\ norepeat one_step_nodone /\ dry one_step_nodone = false /\
  exists s, Reach one_step_nodone s /\ canceled s = true /\ lasterr s = true /\ sigq s = [] /\
    st (nd s 0) = NCancel /\ outs (nd s 0) = [false] /\ overall one_step_nodone s = OCancel.
Proof.
  split; [reflexivity|]. split; [eapply norepeat_steps; reflexivity|]. split; [reflexivity|].
  apply (ex_reach _ done_nil_exec). vm_compute. repeat split; reflexivity.
Qed.

(* (5) A handler that cannot be set up (HSetupFail): the step fails, onFailure's node cannot be set up - it is marked
   failed without running -, and onExit still runs, last; the outcome stays failed. *)
Example C04_handler_setup_failure :
  norepeat hsf_cfg /\
  exists s1 s2 s3, run hsf_cfg (init hsf_cfg) hsf_pre = Some s1 /\ step hsf_cfg s1 HBegin = Some s2 /\
    run hsf_cfg s2 hsf_post = Some s3 /\ pc s3 = LDone /\ overall hsf_cfg s1 = OError /\
    hturns hsf_post = [HFailure; HExit] /\ hstarts hsf_post = [HExit] /\
    hs (hst s3 HFailure) = NError /\ hatt (hst s3 HFailure) = 0 /\ hs (hst s3 HExit) = NSuccess /\
    step hsf_cfg s2 (HStart HFailure) = None /\ overall hsf_cfg s3 = OError.
Proof. split; [eapply norepeat_steps; reflexivity|]. apply ex_run3. vm_compute. repeat split; reflexivity. Qed.
