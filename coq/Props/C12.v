(* C12 - a finished step's log holds everything the step printed.
   This file holds nothing but the property theorems, Print Assumptions and Examples.  The theorems are closed by `exact`,
   except that the two about the error path apply lemmas of Log/Proofs.v stated with one premise less and the refutation
   gives its witness.
   Model: Log/Model.v - files, descriptors, bufio.Writer (4096: Write with bypass / fill-flush, Flush, ReadFrom),
   io.MultiWriter, the capture buffer, node.setup / setupExec / Execute / teardown with the `done` flag, attempts.
   Tie to the code: tools/props/C12.py (real scheduler, real sh children printing a position-dependent pattern; file
   contents against the model's prediction).

   The model describes the REPAIRED code.  Before 8880f0d (Node.done never reset; the stale worker of a failed attempt
   tore down after handing the node back), f5eca82 (capture through an undrained pipe) and 78722d0 (a write error of the
   stdout: redirect ended the copy to the log as well) the statements below were false
   of the faithful model (F12a, F12b, F12c - refuted by witnesses, each replayed on the real code); those witnesses
   are now the positive Examples at the end. *)
From Coq Require Import List NArith.
Import ListNotations.
From BD.Log Require Import Model Proofs.

(* For every subset of {stdout file, stderr file, output variable, script}, every number of attempts (retries), every
   chunking / interleaving of the two streams and every size: when the worker of the last attempt is gone, the file
   named by State.Log holds exactly the bytes of the last attempt that went towards the log, in arrival order; the
   `stdout:` file ends with the same sequence; the `stderr:` file ends with every stderr byte of the last attempt.
   (No write can block in the model: the worker always gets there.)
   Invariant of the proof: for every sink, file ++ buffered = bytes accepted and buffered <= 4096. *)
Theorem C12_complete : forall (A : Type) (c : cfg) (atts : list (list (chunk A))),
  atts <> [] -> complete A c (last atts []) (run A c atts).
Proof. exact complete_all. Qed.
Print Assumptions C12_complete.

(* Error path: teardown flushes the writers one by one.  Whatever the state of the `stdout:` writer - bytes still
   buffered, a target that rejects writes (a full volume, /dev/full), a sticky write error - what the log writer still
   buffers reaches the file named by State.Log. *)
Theorem C12_teardown_flushes_log : forall (A : Type) (s : st A) (lw lf path : nat) (bl : list A),
  n_done (nd A s) = false -> n_logW (nd A s) = Some lw -> sink A s lw lf path bl ->
  (forall ow, n_outW (nd A s) = Some ow -> ow <> lw /\ fd_path (fdd A s (bw_fd A (buf A s ow))) <> path) ->
  dsk A (teardown A s) path = dsk A s path ++ bl.
Proof.
  intros A s lw lf path bl Hd Hl Hs Ho. apply (teardown_flushes_log A s lw lf path bl Hd Hl Hs).
  intros ow H. exact (proj2 (Ho ow H)).
Qed.
Print Assumptions C12_teardown_flushes_log.

(* ... and not only at teardown: while the step prints, every chunk handed to the MultiWriter [log; best-effort stdout;
   capture?] reaches the log sink (file ++ buffer) and no write reports an error, whatever state the stdout: writer is in
   and whenever its target starts to reject writes (MFail, at any point of the event sequence).  Together with
   C12_teardown_flushes_log: the log file receives everything printed regardless of redirect write errors. *)
Theorem C12_log_gets_all : forall (A : Type) (l_tail : list leaf) (evs : list (mev A)) (s : st A) (lw lf path ow of : nat) (L : list A),
  l_tail = [] \/ l_tail = [LCap] -> ow <> lw -> of <> lf -> log_good A s lw lf path ow L ->
  log_good A (fold_left (mstep A (LBuf lw :: LBest ow :: l_tail) of) evs s) lw lf path ow (L ++ written A evs).
Proof. intros A l_tail evs s lw lf path ow of L Ht _. now apply log_gets_all. Qed.
Print Assumptions C12_log_gets_all.

(* the sequence that reaches the log is an order-preserving merge of the attempt's stdout and - unless `stderr:` is
   configured - its stderr: every byte of either stream is there, in order *)
Theorem C12_log_is_merge : forall (A : Type) (c : cfg) (cs : list (chunk A)),
  is_merge A (out_of A cs) (if c_stderr c then [] else err_of A cs) (log_of A c cs).
Proof. exact log_of_merge. Qed.
Print Assumptions C12_log_is_merge.

(* what an `output:` variable receives before TrimSpace (C11): the same sequence of the last attempt, of any size ... *)
Theorem C12_capture : forall (A : Type) (c : cfg) (atts : list (list (chunk A))),
  atts <> [] -> c_output c = true -> outvar A (run A c atts) = Some (log_of A c (last atts [])).
Proof. exact capture_all. Qed.
Print Assumptions C12_capture.

(* ... which is NOT the step's stdout when the step also writes to stderr and no `stderr:` file is set (F11d, C11) *)
Theorem C12_capture_stdout_refuted : exists (c : cfg) (cs : list (chunk nat)),
  c_output c = true /\ outvar nat (run nat c [cs]) <> Some (out_of nat cs).
Proof.
  exists (mkc false false true false), [(Out, [1]); (Err, [2])].
  split; [reflexivity | vm_compute; discriminate].
Qed.
Print Assumptions C12_capture_stdout_refuted.

(* before fix 8880f0d: the second attempt's log stayed empty (F12a) *)
Example C12_retry_stdout_fixed :
  let r := run nat (mkc true false false false) [[(Out, [1])]; [(Out, [2])]] in
  dsk nat r (logpath nat r) = [2] /\ dsk nat r P_STDOUT = [1; 2].
Proof. exact retry_stdout_fixed. Qed.
Example C12_retry_output_fixed :
  let r := run nat (mkc false false true false) [[(Out, [1])]; [(Out, [2])]] in
  dsk nat r (logpath nat r) = [2] /\ outvar nat r = Some [2].
Proof. exact retry_output_fixed. Qed.
(* before fix f5eca82: 65537 captured bytes blocked the step for good (F12c) *)
Example C12_big_output_fixed :
  let cs := [(Out, repeat 0 (N.to_nat 32768)); (Out, repeat 0 (N.to_nat 32768)); (Out, [0])] in
  let r := run nat (mkc false false true false) [cs] in
  N.of_nat (length (dsk nat r (logpath nat r))) = 65537%N /\
  match outvar nat r with Some v => N.of_nat (length v) = 65537%N | None => False end.
Proof. exact big_output_fixed. Qed.
(* the premises of C12_teardown_flushes_log are met by a run whose stdout: target starts to reject writes: the log
   still receives everything, the stdout: file nothing *)
Example C12_teardown_log_with_failing_stdout :
  let c := mkc true false false false in
  let s := exec nat c init (body nat 0 [(Out, [1; 2; 3]); (Err, [4])]) in
  let s' := match n_outF (nd nat s) with Some f => close nat s f | None => s end in
  dsk nat (teardown nat s') (logpath nat s') = [1; 2; 3; 4] /\ dsk nat (teardown nat s') P_STDOUT = [].
Proof. exact teardown_log_with_failing_stdout. Qed.
(* before fix 78722d0 the first failed write of the stdout: redirect ended the copy: the log lost what followed *)
Example C12_failing_stdout_beyond_buffer_fixed :
  let c := mkc true false false false in
  let s0 := exec nat c init [ASetup nat 0; AStart nat] in
  let s1 := match n_outF (nd nat s0) with Some f => close nat s0 f | None => s0 end in
  let s2 := exec nat c s1 [AChunk nat Out (repeat 1 3000); AChunk nat Err (repeat 2 3000); AChunk nat Out [3]; AEnd nat; ATeardown nat] in
  dsk nat s2 (logpath nat s2) = repeat 1 3000 ++ repeat 2 3000 ++ [3] /\ dsk nat s2 P_STDOUT = [].
Proof. exact failing_stdout_beyond_buffer_fixed. Qed.
(* non-vacuity: every setting on, three attempts *)
Example C12_nonvacuous :
  let c := mkc true true true true in
  let atts := [[(Out, repeat 7 5000); (Err, [1; 2; 3]); (Out, repeat 8 3000)]; [(Out, [4])]; [(Err, [9]); (Out, repeat 5 4097); (Out, [6])]] in
  let r := run nat c atts in
  atts <> [] /\ dsk nat r (logpath nat r) = repeat 5 4097 ++ [6] /\ dsk nat r P_STDERR = [1; 2; 3; 9] /\
  outvar nat r = Some (repeat 5 4097 ++ [6]).
Proof. exact complete_all_example. Qed.
