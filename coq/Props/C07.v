(* C07 - recorded history survives a crash at any instant.
   This file holds nothing but the property theorems, Print Assumptions, and Examples: each is a theorem of Hist/ProofsC07.v (the two
   witnesses against atomicity and the Examples: of Hist/ProofsC07Ex.v), an instance of one, or - C07_crash_removeold_P1 - a
   corollary of the theorem above it.

   Model:  Hist/Model.v: every store operation is a list of primitive FS steps (`prims`: mkdir / create / append chunk / unlink /
           rename / rmdir / chtimes); `crash_states h o` = the file system after EVERY prefix of that list, plus, for an interrupted append,
           the two torn classes (a proper prefix of the JSON text; the complete JSON text without its newline).  A kill of the
           process leaves exactly such a state (kernel buffers survive a process kill - this is NOT power loss; fsync is
           irrelevant and not modelled).  Afterwards a FRESH process (empty cache) asks find / latest / recent.
   Proofs: Hist/ProofsCrash.v (structured level: every crash state is related to a run map, up to one file the queries do not
           see - the temporary copy or the shadowed original of a compaction - and stays so under later updates),
           Hist/ProofsString.v (crash states of the string-level model = renderings of the structured ones), Hist/ProofsC07.v
           (composition), Hist/ProofsC07Ex.v (the former witnesses of F7a/b/c as repaired Examples, the witnesses against atomicity of
           retention and rename); below them the files listed in Props/C06.v.  Quantification: ALL reachable states (any trace `es`
           of operations and queries satisfying the premises of C06) x ALL operations x ALL crash states.
   Tie to the code: tools/props/C07.py - the real jsondb is killed by SIGKILL at every system call of scripted scenarios
           (strace fault injection) and at every byte of the last append; the surviving directory must be one of the model's crash
           states and the answers of a fresh process must satisfy P1-P4 (monitor).

   P1 every completed run is found with its last status; P2 the interrupted run is found with a status no older than the last
   acknowledged one; P3 latest answers without error, never older than acknowledged; P4 recent n lists no run twice and hides
   no run with acknowledged data.
   Model of the REPAIRED store (3aa388e: readers skip files without a parseable status; eb925d1: the compacted copy is written as
   <file>.tmp, published with a rename, and the readers drop an original whose compacted copy is listed; 32b069b: writer.open terminates
   a torn last line; e6d6379, 8ffc003, e2affa2 as for C06).
   What holds (FULL statement): open / write / close / update / chtimes are ATOMIC under a kill - in EVERY crash state (every prefix of
   the primitive steps, every torn append) EVERY query is answered as the run map before or after the operation says (P1-P4), for every
   reachable state.  This includes the crash between Open and the first write (F7a, 3aa388e) and EVERY point of the compaction (F7b,
   eb925d1 - C07_crash_close has no exception left).  A status update recorded by a new process AFTER a kill inside a write / update -
   torn tail or not - is what every query answers afterwards (F7c, 32b069b - C07_update_after_torn); the same holds after a kill at any
   point of Close (C07_update_after_close_crash_general).
   Retention and rename are NOT atomic (one unlink(2) / rename(2) per history file - the intermediate states are visible:
   C07_refuted_retention_atomic, C07_refuted_rename_atomic); what holds, exactly: every crash state of retention answers EVERY query as
   the run map in which SOME of the runs that are up for removal are already removed (C07_crash_removeold); every crash state of rename
   answers EVERY query - under the old name, the new name, any other DAG - as the run map in which SOME of the runs of d already belong
   to d' (C07_crash_rename: each run is found under exactly one of the two names, latest / recent of a name list the runs currently
   there).  Their P1 consequences are kept as C07_crash_removeold_P1 / C07_crash_rename_P1.
   The former _refuted witnesses of F7a / F7b / F7c are positive Examples now (C07_fixed_...).
   Premises: those of C06 (names_okb, closedb, premises) for the trace up to and including the interrupted operation. *)
From Coq Require Import List String ZArith Bool Arith.
Import ListNotations.
From BD.Hist Require Import GoMatch Model SModel Spec ProofsString ProofsRefine ProofsTop ProofsC06 ProofsC06Ex ProofsCrash ProofsC07 ProofsC07Ex.

(* open / write / close / update / chtimes (atomic_op): EVERY crash state answers EVERY query of a fresh process as the run map
   BEFORE or AFTER the operation *)
Theorem C07_crash_atomic :
  forall (loc : string) (dirhash : string -> string) (D days : list string) (K : list skey),
  names_okb loc dirhash D days K = true -> closedb D K = true ->
  forall (es : list ev) (o : op) (fs' : fs),
  premises loc dirhash D days K (es ++ [EOp o]) -> atomic_op o = true ->
  In fs' (crash_states loc dirhash (y_h (yrun loc dirhash sys_init es)) o) ->
  answers0 loc dirhash D days fs' (sp_state es) \/ answers0 loc dirhash D days fs' (sp_state (es ++ [EOp o])).
Proof. exact crash_atomic. Qed.
Print Assumptions C07_crash_atomic.
Example C07_atomic_ops : forall d stamp req r8 c tag size now t,
  map atomic_op [OOpen d stamp req now; OWrite tag size now; OClose now; OUpdate d req tag size now; OTouch d stamp r8 c t;
                 ORename d d; ORemoveOld d now] = [true; true; true; true; true; false; false].
Proof. reflexivity. Qed.

(* close with compaction, spelled out: EVERY crash state - temporary copy absent / empty / torn / complete, copy published with the
   original still there, original removed - answers every query as before or after the close.  (Before eb925d1 the window in which
   the compacted twin was complete and the original not yet unlinked was an exception.)  The instance of C07_crash_atomic for Close. *)
Theorem C07_crash_close :
  forall loc dirhash D days K, names_okb loc dirhash D days K = true -> closedb D K = true ->
  forall es now fs', premises loc dirhash D days K (es ++ [EOp (OClose now)]) ->
  In fs' (crash_states loc dirhash (y_h (yrun loc dirhash sys_init es)) (OClose now)) ->
  answers0 loc dirhash D days fs' (sp_state es) \/ answers0 loc dirhash D days fs' (sp_state (es ++ [EOp (OClose now)])).
Proof. intros loc dirhash D days K OK KC es now fs' P. exact (crash_atomic loc dirhash D days K OK KC es (OClose now) fs' P eq_refl). Qed.
Print Assumptions C07_crash_close.

(* an update after a torn tail: the recording process is killed at ANY point of a write or an update (o); then a NEW process
   (fresh_state: no writer, empty cache) records the status update u on the surviving directory fs'.  Afterwards every query is
   answered as the run map with u recorded says - on top of the run map before or after o.  (Before 32b069b the update was glued to
   the torn line and lost.) *)
Theorem C07_update_after_torn :
  forall loc dirhash D days K, names_okb loc dirhash D days K = true -> closedb D K = true ->
  forall es o fs' d req tag size now, premises loc dirhash D days K (es ++ [EOp o]) ->
  match o with OWrite _ _ _ | OUpdate _ _ _ _ _ => True | _ => False end ->
  In fs' (crash_states loc dirhash (y_h (yrun loc dirhash sys_init es)) o) -> In d D ->
  let u := OUpdate d req tag size now in
  let fs2 := hfs (apply loc dirhash (fresh_state fs') u) in
  answers0 loc dirhash D days fs2 (sp_apply (sp_state es) u) \/ answers0 loc dirhash D days fs2 (sp_apply (sp_state (es ++ [EOp o])) u).
Proof.
  intros loc dirhash D days K OK KC es o fs' d req tag size now P AO. apply (update_after_crash0 loc dirhash D days K OK KC); auto.
  destruct o; try contradiction; reflexivity.
Qed.
Print Assumptions C07_update_after_torn.

(* an update after a kill inside Close, in general: for every reachable state, every crash state of Close (every prefix of its primitive
   steps, every torn class of the temporary copy), a status update of ANY run recorded afterwards by a new process on the surviving
   directory is what find, latest and recent answer - as the run map with that update, on top of the run map before or after the
   close.  (The temporary copy is matched by no pattern; next to its original the compacted copy is the file the reverse-name lookup
   finds AND the file the listings read: names_okb contains `path of the compacted copy > path of its original`.) *)
Theorem C07_update_after_close_crash_general :
  forall loc dirhash D days K, names_okb loc dirhash D days K = true -> closedb D K = true ->
  forall es now fs' d req tag size now2, premises loc dirhash D days K (es ++ [EOp (OClose now)]) ->
  In fs' (crash_states loc dirhash (y_h (yrun loc dirhash sys_init es)) (OClose now)) -> In d D ->
  let u := OUpdate d req tag size now2 in
  let fs2 := hfs (apply loc dirhash (fresh_state fs') u) in
  answers0 loc dirhash D days fs2 (sp_apply (sp_state es) u) \/ answers0 loc dirhash D days fs2 (sp_apply (sp_state (es ++ [EOp (OClose now)])) u).
Proof. intros loc dirhash D days K OK KC es now fs' d req tag size now2 P. exact (update_after_crash0 loc dirhash D days K OK KC es (OClose now) fs' d req tag size now2 P eq_refl). Qed.
Print Assumptions C07_update_after_close_crash_general.

(* retention / deletion, in full: whatever prefix of the unlinks was executed, EVERY query (find, latest, recent; every DAG) answers as
   a run map H' that is the run map before the operation minus some of the runs that are up for removal: nothing is added, every run
   that is not up for removal is there, no run twice (P1-P4 on the surviving runs) *)
Theorem C07_crash_removeold :
  forall loc dirhash D days K, names_okb loc dirhash D days K = true -> closedb D K = true ->
  forall es d cutoff fs', premises loc dirhash D days K (es ++ [EOp (ORemoveOld d cutoff)]) ->
  In fs' (crash_states loc dirhash (y_h (yrun loc dirhash sys_init es)) (ORemoveOld d cutoff)) ->
  exists H', answers0 loc dirhash D days fs' H' /\ hist_okb H' = true
    /\ (forall a, In a (h_runs H') -> In a (h_runs (sp_state es)))
    /\ (forall a, In a (h_runs (sp_state es)) -> ~ (a_dag a = d /\ (a_mtime a < cutoff)%Z) -> In a (h_runs H'))
    /\ NoDup (map a_id (h_runs H')).
Proof. exact crash_removeold_full0. Qed.
Print Assumptions C07_crash_removeold.
(* ... its P1 consequence: whatever prefix of the unlinks was executed, a run that is not up for removal is found intact *)
Theorem C07_crash_removeold_P1 :
  forall loc dirhash D days K, names_okb loc dirhash D days K = true -> closedb D K = true ->
  forall es d cutoff fs', premises loc dirhash D days K (es ++ [EOp (ORemoveOld d cutoff)]) ->
  In fs' (crash_states loc dirhash (y_h (yrun loc dirhash sys_init es)) (ORemoveOld d cutoff)) ->
  forall a, In a (h_runs (sp_state es)) -> In (a_dag a) D -> a_req a <> ""%string -> ~ (a_dag a = d /\ (a_mtime a < cutoff)%Z) ->
  fpayload (q_find loc dirhash fs' (a_dag a) (a_req a)) = last_opt (a_sts a).
Proof.
  intros loc dirhash D days K OK KC es d cutoff fs' P IN a Ia Id Nr NE.
  destruct (C07_crash_removeold loc dirhash D days K OK KC es d cutoff fs' P IN) as [H' [A [O [_ [S N]]]]].
  destruct (A _ Id) as [A1 _]. rewrite A1. apply sp_find_own; auto.
Qed.
Print Assumptions C07_crash_removeold_P1.

(* rename, in full: whatever prefix of the renames was executed, EVERY query answers as a run map H' whose runs are the runs before the
   operation, each either unchanged or (only if it belonged to d) moved to d' (rrel): a run is found under exactly one name, and latest /
   recent of d, of d' and of every other DAG list exactly the runs that are there at that moment *)
Theorem C07_crash_rename :
  forall loc dirhash D days K, names_okb loc dirhash D days K = true -> closedb D K = true ->
  forall es d d' fs', premises loc dirhash D days K (es ++ [EOp (ORename d d')]) ->
  In fs' (crash_states loc dirhash (y_h (yrun loc dirhash sys_init es)) (ORename d d')) ->
  exists H', answers0 loc dirhash D days fs' H' /\ hist_okb H' = true
    /\ exists l, Permutation.Permutation l (h_runs (sp_state es)) /\ Forall2 (ProofsCrash.rrel d d') l (h_runs H').
Proof. exact crash_rename_full0. Qed.
Print Assumptions C07_crash_rename.
Example C07_rrel_meaning : forall d d' a a', ProofsCrash.rrel d d' a a' <-> (a' = a \/ (a_dag a = d /\ a' = set_dag d' a)).
Proof. intros. reflexivity. Qed.
(* ... its P1 consequence: a run of another DAG is found intact, a run of the renamed DAG under exactly one of the two names *)
Theorem C07_crash_rename_P1 :
  forall loc dirhash D days K, names_okb loc dirhash D days K = true -> closedb D K = true ->
  forall es d d' fs', premises loc dirhash D days K (es ++ [EOp (ORename d d')]) ->
  In fs' (crash_states loc dirhash (y_h (yrun loc dirhash sys_init es)) (ORename d d')) ->
  forall a, In a (h_runs (sp_state es)) -> In (a_dag a) D -> a_req a <> ""%string ->
    (a_dag a <> d -> fpayload (q_find loc dirhash fs' (a_dag a) (a_req a)) = last_opt (a_sts a))
    /\ (a_dag a = d ->
         (fpayload (q_find loc dirhash fs' d (a_req a)) = last_opt (a_sts a) /\ fpayload (q_find loc dirhash fs' d' (a_req a)) = None)
         \/ (fpayload (q_find loc dirhash fs' d (a_req a)) = None /\ fpayload (q_find loc dirhash fs' d' (a_req a)) = last_opt (a_sts a))).
Proof. exact crash_rename0. Qed.
Print Assumptions C07_crash_rename_P1.

(* full before-or-after atomicity is FALSE for retention and rename (by design of the store: file by file) - witnesses on the model *)
Theorem C07_refuted_retention_atomic :
  exists fs', In fs' rmStates
    /\ sp_recent (sp_state es2) a 5 = [q2; q1] /\ sp_recent (sp_state (es2 ++ [EOp (ORemoveOld a 100%Z)])) a 5 = []
    /\ snd (q_recent loc dh [] fs' a 5) = [q2].
Proof. exact retention_not_atomic. Qed.
Theorem C07_refuted_rename_atomic :
  exists fs', In fs' mvStates
    /\ sp_recent (sp_state es2) a 5 = [q2; q1] /\ sp_recent (sp_state es2) ab 5 = []
    /\ sp_recent (sp_state (es2 ++ [EOp (ORename a ab)])) a 5 = [] /\ sp_recent (sp_state (es2 ++ [EOp (ORename a ab)])) ab 5 = [q2; q1]
    /\ snd (q_recent loc dh [] fs' a 5) = [q2] /\ snd (q_recent loc dh [] fs' ab 5) = [q1]
    /\ fpayload (q_find loc dh fs' a "req-aaaa-1") = None /\ fpayload (q_find loc dh fs' ab "req-aaaa-1") = Some q1.
Proof. exact rename_not_atomic. Qed.
Example C07_partial_ops_premises :
  premisesb loc dh DE7 [] KE7 (es2 ++ [EOp (ORemoveOld a 100%Z)]) = true /\ premisesb loc dh DE7 [] KE7 (es2 ++ [EOp (ORename a ab)]) = true
  /\ List.length rmStates = 3 /\ List.length mvStates = 5.
Proof. exact partial_ops_premises. Qed.

(* the former refutation witnesses, on the repaired model.
   F7a (P3, P4) - before fix 3aa388e the model answered latest = error, recent 1 = nothing in the crash state with the empty newest file *)
Example C07_fixed_empty_newest :
  sp_latest (sp_state es0) a None = LOk q1 /\ sp_recent (sp_state es0) a 1 = [q1]
  /\ List.length (crash_states loc dh (y_h (yrun loc dh sys_init es0)) oOpen) = 3
  /\ forallb (fun fs' => match snd (q_latest loc dh [] fs' a None), snd (q_recent loc dh [] fs' a 1) with
                         | LOk p, [p'] => String.eqb (p_req p) "req-aaaa-1" && String.eqb (p_req p') "req-aaaa-1" && Nat.eqb (p_tag p) 1
                         | _, _ => false end)
             (crash_states loc dh (y_h (yrun loc dh sys_init es0)) oOpen) = true.
Proof. exact fixed_empty_newest. Qed.
(* F7b (P4) - before fix eb925d1 the model answered recent 2 = [q2; q2] in the crash state of Close in which the compacted copy was
   complete and the original not yet unlinked (the older run q1 was hidden); now all nine crash states answer [q2; q1] and latest = q2,
   the state with both files (index 7) included *)
Example C07_fixed_compaction_twin :
  sp_recent (sp_state es1) a 2 = [q2; q1] /\ sp_recent (sp_state (es1 ++ [EOp (OClose 6%Z)])) a 2 = [q2; q1]
  /\ List.length closeStates = 9
  /\ forallb (fun fs' => match snd (q_recent loc dh [] fs' a 2), snd (q_latest loc dh [] fs' a None) with
                         | [p; p'], LOk p'' => String.eqb (p_req p) "req-bbbb-2" && String.eqb (p_req p') "req-aaaa-1" && Nat.eqb (p_tag p'') 2
                         | _, _ => false end) closeStates = true
  /\ map (fun fs' => List.length (files fs')) closeStates = [2; 2; 2; 3; 3; 3; 3; 3; 2]%nat
  /\ map e_name (files (nth 7 closeStates fs_empty))
     = ["a.20240101.10:00:00.100.req-aaaa_c.dat"; "a.20240101.10:00:01.300.req-bbbb.dat"; "a.20240101.10:00:01.300.req-bbbb_c.dat"]%string.
Proof. exact fixed_compaction_twin. Qed.
(* ... and the temporary copy (empty / torn / complete) is matched by no pattern: find still reads the original *)
Example C07_tmp_copy_invisible :
  map e_name (files (nth 4 closeStates fs_empty))
  = ["a.20240101.10:00:00.100.req-aaaa_c.dat"; "a.20240101.10:00:01.300.req-bbbb.dat"; "a.20240101.10:00:01.300.req-bbbb_c.dat.tmp"]%string
  /\ forallb (fun i => match q_find loc dh (nth i closeStates fs_empty) a "req-bbbb-2" with
                       | FFound _ fn p => String.eqb fn "a.20240101.10:00:01.300.req-bbbb.dat" && Nat.eqb (p_tag p) 2
                       | _ => false end) [3; 4; 5; 6]%nat = true.
Proof. exact tmp_copy_invisible. Qed.
(* F7c - before fix 32b069b the model answered find = the OLD status q2 after an update (tag 9) recorded on a torn tail (the update
   was glued to the torn line and lost); now find and latest answer the update in all four crash states of the interrupted write,
   and writer.open appends the repairing newline exactly in the two torn ones (4 primitive steps instead of 3) *)
Example C07_fixed_glued_update :
  List.length tornStates = 4
  /\ forallb (fun fs' => match fpayload (q_find loc dh (hfs (apply loc dh (fresh_state fs') upd9)) a "req-bbbb-2"),
                               snd (q_latest loc dh [] (hfs (apply loc dh (fresh_state fs') upd9)) a None) with
                         | Some p, LOk p' => Nat.eqb (p_tag p) 9 && Nat.eqb (p_tag p') 9
                         | _, _ => false end) tornStates = true
  /\ map (fun fs' => List.length (prims loc dh upd9 (fresh_state fs'))) tornStates = [3; 4; 4; 3]%nat.
Proof. exact fixed_glued_update. Qed.

(* ... and an update recorded by a new process after a kill at ANY of the nine points of that Close is shown by find, latest and recent
   (the lookup scans the matches in reverse name order: next to its original the compacted copy is found, updated - and read by the
   listings).  An instance of C07_update_after_close_crash_general; on the real store the enumeration runs this after-phase at every
   kill point of Close. *)
Example C07_update_after_close_crash :
  forallb (fun fs' => let fs2 := hfs (apply loc dh (fresh_state fs') upd9) in
                      match fpayload (q_find loc dh fs2 a "req-bbbb-2"), snd (q_latest loc dh [] fs2 a None), snd (q_recent loc dh [] fs2 a 2) with
                      | Some p, LOk p', [r1; r2] => Nat.eqb (p_tag p) 9 && Nat.eqb (p_tag p') 9 && Nat.eqb (p_tag r1) 9
                                                   && String.eqb (p_req r1) "req-bbbb-2" && String.eqb (p_req r2) "req-aaaa-1"
                      | _, _, _ => false end) closeStates = true.
Proof. exact update_after_close_crash. Qed.

(* non-vacuity: the premises hold for traces whose last operation has 4 / 9 / 6 crash states *)
Example C07_premises_satisfiable :
  names_okb loc dh DE7 [] KE7 = true /\ closedb DE7 KE7 = true
  /\ premisesb loc dh DE7 [] KE7 (es1 ++ [EOp (OWrite 3 10 7%Z)]) = true
  /\ premisesb loc dh DE7 [] KE7 (es1 ++ [EOp (OClose 6%Z)]) = true
  /\ premisesb loc dh DE7 [] KE7 (es0 ++ [EOp (OUpdate a "req-aaaa-1" 5 11 9%Z)]) = true
  /\ premisesb loc dh DE7 [] KE7 (es0 ++ [EOp (ORemoveOld a 100%Z)]) = true
  /\ List.length (crash_states loc dh (y_h (yrun loc dh sys_init es1)) (OWrite 3 10 7%Z)) = 4
  /\ List.length (crash_states loc dh (y_h (yrun loc dh sys_init es1)) (OClose 6%Z)) = 9
  /\ List.length (crash_states loc dh (y_h (yrun loc dh sys_init es0)) (OUpdate a "req-aaaa-1" 5 11 9%Z)) = 6.
Proof. exact crash_premises_satisfiable. Qed.
