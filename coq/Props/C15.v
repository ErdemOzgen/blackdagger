(* C15 - no more steps run at once than maxActiveRuns allows.
   Model: Sched/Model.v (scheduler.go:98-259, node.go).  Proofs: Sched/Step.v, Sched/Proofs.v (invariant), Sched/ProofsTerm.v
   (measure, progress), Sched/ProofsTrace.v (visible trace).  Tie to the code: tools/props/C15.py (trace validation of the real scheduler).
   Premise of every theorem but C15_unbounded: norepeat c (no repeatPolicy step; those belong to C05).  For C15_bound the premise is NEEDED:
   a step with repeatPolicy and continueOn.failure whose command fails is labelled failed and keeps repeating - it is no
   longer counted as running, and with maxActiveRuns = 1 two commands execute at once (C15_repeating_step_refuted below;
   the same on the real scheduler: findings/C15-repeat-continue-on-failure.json).  For the finiteness theorems it is needed
   because a repeating step runs until a stop request; what holds after a stop, for EVERY configuration, is in C05
   (C05_no_new_start, C05_started_at_most_once: at most one more start per step).  Since fix f9e55a3 the theorems hold
   whether or not Schedule is given a done channel. *)
From Coq Require Import List.
Import ListNotations.
From BD.Sched Require Import Model Proofs ProofsFinal ProofsTerm Replay ReplayProofs ProofsTrace Examples Examples2.

(* In every reachable state of every configuration with maxActiveRuns = k > 0 - that is after every prefix of
   every execution, whatever the DAG, the outcomes and the interleaving - at most k nodes are in state running
   (the quantity the code counts), at most k workers are between launch and the end of their retry interval,
   at most k are executing or waiting out a retry interval, and at most k commands are executing. *)
Theorem C15_bound : forall c : cfg, norepeat c ->
  forall s, Reach c s -> maxActive c > 0 ->
    running_count c s <= maxActive c /\ active_count c s <= maxActive c /\
    retrywait_count c s <= maxActive c /\ exec_count c s <= maxActive c.
Proof. exact C15_bound_all. Qed.
Print Assumptions C15_bound.

(* ... hence on the VISIBLE trace (entries/exits of the executor's Run) of every execution the number of open Run calls
   never exceeds k: mon_open is the untimed part of the monitor the check evaluates on the real scheduler's traces. *)
Theorem C15_on_every_trace : forall c : cfg, norepeat c ->
  forall ls s, maxActive c > 0 -> run c (init c) ls = Some s -> mon_open (maxActive c) [] (vis ls) = true.
Proof. exact mon_open_holds. Qed.
Print Assumptions C15_on_every_trace.

(* a step waiting out its retry interval keeps status running, i.e. occupies a slot (unless the run was stopped) *)
Theorem C15_retrywait_is_running : forall c : cfg, norepeat c ->
  forall s i, Reach c s -> canceled s = false -> ph (nd s i) = PRetryWait -> st (nd s i) = NRunning.
Proof. exact retrywait_is_running. Qed.
Print Assumptions C15_retrywait_is_running.

(* maxActiveRuns = 0: the capacity test never blocks a launch *)
Theorem C15_unbounded : forall (c : cfg) s i, maxActive c = 0 ->
  i < nsteps c -> pc s = LHead -> st (nd s i) = NNone -> ready c s i = true -> canceled s = false ->
  step c s (LCommit i) = Some (set_pc s (LCommitted i)).
Proof.
  intros c s i Hk Hi Hp Hst Hr Hc. cbn [step]. rewrite Hp, Hst, Hr, Hc, Hk.
  apply PeanoNat.Nat.ltb_lt in Hi. rewrite Hi. reflexivity.
Qed.
Print Assumptions C15_unbounded.

(* "The limit never prevents a run from completing", in three parts, for every configuration whose dependency
   relation is well-founded (what NewExecutionGraph guarantees, C14):
   (1) every label strictly decreases an explicit measure, so EVERY execution is finite, with the bound
       sum_i (12 * retryLimit_i + 9) + 8 + (n+1) * (number of Signal calls) + 1; *)
Theorem C15_all_executions_finite : forall c : cfg, norepeat c ->
  forall ls s, run c (init c) ls = Some s -> length ls <= bound c.
Proof. exact all_executions_finite. Qed.
Print Assumptions C15_all_executions_finite.

Theorem C15_measure_decreases : forall c : cfg, norepeat c ->
  forall s l s', Inv c s -> step c s l = Some s' -> measure c s' < measure c s.
Proof. exact step_measure. Qed.
Print Assumptions C15_measure_decreases.

(* (2) progress: in every reachable state other than Done the scheduler itself has an enabled step, unless a command
       or a handler is executing (then the environment's "command ends" is enabled) - the capacity test never
       deadlocks the loop: it refuses a launch only while some node is running, and a running node has a live worker; *)
Theorem C15_progress : forall c : cfg, norepeat c ->
  forall s, Reach c s -> wf_deps c -> pc s <> LDone ->
  (exists l s', internal l = true /\ step c s l = Some s') \/
  (exists i, i < nsteps c /\ ph (nd s i) = PExec) \/ (exists h t, pc s = LHandlers (h :: t) true).
Proof. exact progress. Qed.
Print Assumptions C15_progress.

(* (3) hence from every reachable state the run can be driven to Done, and by (1) every maximal execution ends there. *)
Theorem C15_can_complete : forall c : cfg, norepeat c ->
  forall s, Reach c s -> wf_deps c -> exists ls s', run c s ls = Some s' /\ pc s' = LDone.
Proof. exact can_complete. Qed.
Print Assumptions C15_can_complete.

(* Non-vacuity: the diamond a -> {b,c} -> d with maxActiveRuns = 2 reaches a state in which two commands execute
   (the bound is attained) and the launch of a further step is refused there. *)
Example C15_nonvacuous :
  (donech diamond = true /\ norepeat diamond) /\
  exists s, run diamond (init diamond) diamond_two = Some s /\ maxActive diamond = 2 /\
            exec_count diamond s = 2 /\ running_count diamond s = 2 /\ step diamond s (LCommit 3) = None.
Proof. split; [exact diamond_ok|]. apply ex_run. vm_compute. auto. Qed.

(* the diamond's dependency relation is well-founded and its complete run (38 labels) is within the bound (57) *)
Example C15_nonvacuous_termination :
  wf_deps diamond /\
  exists s, run diamond (init diamond) diamond_full = Some s /\ pc s = LDone /\ quiet s /\ dry diamond = false /\
     map (fun i => (st (nd s i), rc (nd s i), att (nd s i), outs (nd s i))) [0; 1; 2; 3] =
       [(NSuccess, 0, 1, [true]); (NSuccess, 1, 2, [true; false]); (NSuccess, 0, 1, [true]); (NSuccess, 0, 1, [true])] /\
     length diamond_full <= bound diamond.
Proof. exact (conj diamond_wf diamond_done). Qed.

(* Before fix f9e55a3, with done == nil two commands could run with maxActiveRuns = 1 (the stale worker of a
   retried step flipped the running attempt to finished, so the capacity count missed it).  In the model, which follows the repaired code: *)
Example C15_done_nil_flip_repaired :
  exists s, run flip_cfg (init flip_cfg) flip_exec = Some s /\
            norepeat flip_cfg /\ donech flip_cfg = false /\ maxActive flip_cfg = 1 /\
            In 0 (deps (steps flip_cfg 1)) /\ ph (nd s 0) = PExec /\ st (nd s 0) = NRunning /\
            step flip_cfg s (LCommit 1) = None.
Proof. exact stale_flip_repaired. Qed.

(* Why norepeat is a premise of C15_bound: maxActiveRuns = 1; step 0 (repeatPolicy + continueOn.failure) fails once, is
   labelled failed and waits to repeat; step 1 is launched (no node is in state running); step 0 repeats: two commands
   execute (exec_count = 2) while the quantity the code counts is 1. *)
Example C15_repeating_step_refuted :
  maxActive repeat_cof_cfg = 1 /\ donech repeat_cof_cfg = true /\
  exists s1 s2 s3, run repeat_cof_cfg (init repeat_cof_cfg) repeat_cof_pre = Some s1 /\
    step repeat_cof_cfg s1 (WExecStart 1) = Some s2 /\ run repeat_cof_cfg s2 repeat_cof_post = Some s3 /\
    In 0 (deps (steps repeat_cof_cfg 1)) /\ In (WExecStart 0) repeat_cof_post /\
    st (nd s1 0) = NError /\ ph (nd s1 0) = PRepeatWait /\
    ph (nd s3 0) = PExec /\ ph (nd s3 1) = PExec /\ exec_count repeat_cof_cfg s3 = 2 /\ running_count repeat_cof_cfg s3 = 1.
Proof. exact repeat_cof_breaks_order_and_cap. Qed.

(* A command that cannot be created (the theorems above cover it: in the model it is the label WCreateFail, an attempt
   that fails without a command having been started): step 0 (retry limit 1, continueOn.failure, maxActiveRuns = 1)
   fails to create its command once, waits out the retry interval still RUNNING - the slot stays taken during the retry interval and is freed afterwards: step 1 is refused meanwhile -,
   then executes and succeeds; only then step 1 is launched. *)
Example C15_creation_failure_nonvacuous :
  norepeat cfail_cfg /\ maxActive cfail_cfg = 1 /\
  exists s1 s2, run cfail_cfg (init cfail_cfg) cfail_pre = Some s1 /\
    st (nd s1 0) = NRunning /\ ph (nd s1 0) = PRetryWait /\ rc (nd s1 0) = 1 /\ outs (nd s1 0) = [false] /\
    step cfail_cfg s1 (LCommit 1) = None /\ step cfail_cfg s1 (WExecStart 0) = None /\
    run cfail_cfg s1 cfail_post = Some s2 /\
    st (nd s2 0) = NSuccess /\ rc (nd s2 0) = 1 /\ att (nd s2 0) = 2 /\ outs (nd s2 0) = [true; false] /\
    ph (nd s2 1) = PExec.
Proof. exact cfail_retry_ok. Qed.
