(* C16 - at most one run of a DAG file is active at a time.
   This file holds nothing but the property theorems and Examples (closed by `exact`) and Print Assumptions.
   Model: Sock/Model.v - every start / retry of the file is a process running the action list
   [BuildGraph; EvalPre; Lock; Probe; RemoveOld; OpenHist; WriteS0; UnlinkSock; Bind; Unlock; Steps; Handlers; WriteFinal;
    ShutUnlink; ShutClose; CloseHist] (agent.go Run / lockSocket, sock/server.go Serve, net.UnixListener.close) over a
   shared world; any number of processes interleave at action granularity.  This is the protocol AFTER the repair
   a924e5c (the probe..bind section is done under an exclusive flock on the DAG definition file; the socket path is
   removed once, by the listener close); before it the last clause of the property was false (F16a: findings/).
   What remains an assumption (modelled primitive, not proved): flock(LOCK_EX) is exclusive - `Lock` is enabled only while
   nobody holds the lock - and is released by closing the descriptor (`Unlock`, refusal, failure; process death is not
   modelled).  Since F16b the lock is on a dedicated file next to the socket address (created on demand, never removed; a
   failure to open it is an error): saving the definition (label Save) does not touch it; assumption: nothing else
   removes or replaces that file.
   Agent/Run.v is the single-agent skeleton.  Tie to the code: tools/props/C16.py (real `blackdagger` processes under
   strace with delay injection, and in-process agents, replayed against `run`). *)
From Coq Require Import List Bool Arith.
Import ListNotations.
From BD.Agent Require Import Run RunProofs.
From BD.Sock Require Import Model Proofs.

(* A start or retry whose probe is answered "running" has terminated without recording a run, executing anything or
   touching the socket - in every interleaving of any number of processes. *)
Theorem C16_refused_silent : forall (s0 : sockst) (sched : list label) (w : world) (p : nat),
  (forall q, s0 <> Bound q) -> run sched (init s0) = Some w -> refused (procs w p) = true ->
  pc (procs w p) = pcEnd /\ ~ In p (hist w) /\ ~ In p (execd w) /\ listening w p = false /\ sock w <> Bound p.
Proof. exact refused_silent. Qed.
Print Assumptions C16_refused_silent.

(* The refusal itself changes nothing but the refused process' own state. *)
Theorem C16_refusal_changes_nothing : forall (w : world) (p : nat) (w' : world),
  cur w p = Some Probe -> answering w = true -> step (Do p) w = Some w' ->
  sock w' = sock w /\ hist w' = hist w /\ execd w' = execd w /\ (forall q, listening w' q = listening w q) /\
  (forall q, q <> p -> procs w' q = procs w q) /\ refused (procs w' p) = true /\ pc (procs w' p) = pcEnd /\ lock w' = None.
Proof. exact refusal_step. Qed.
Print Assumptions C16_refusal_changes_nothing.

(* The single agent (start and retry alike - they differ in the graph construction only): a run that finds the DAG
   running ends with the probe; no history, schedule or socket action. *)
Theorem C16_agent_refused_start_is_silent : forall e : env,
  e_gaccept e = true -> (e_has_pre e = true -> e_pre_ok e = true) -> e_dry e = false ->
  e_probe_running e = true \/ e_probe_timeout e = true ->
  let acts := fst (Run.run e) in
  snd (Run.run e) = true /\ existsb is_hist acts = false /\ existsb is_sched acts = false /\ existsb is_sock acts = false
  /\ last acts ABuildGraph = AProbe.
Proof. exact refused_start_is_silent. Qed.
Print Assumptions C16_agent_refused_start_is_silent.

(* From ANY reachable state in which q owns the socket path (bound, lock released or about to be, shutdown not begun):
   in EVERY continuation in which q has not begun its shutdown, q still owns the path and its endpoint answers, the
   history is unchanged, no other process executed anything, and every process that took its probe was refused.
   (L and I are the invariants of the reachable states: C16_reachable_inv.) *)
Theorem C16_after_bind : forall (q : nat) (sched : list label) (w w' : world),
  L w -> I w -> owner (procs w q) = true -> run sched w = Some w' -> pc (procs w' q) <= pcShutUnlink ->
  (owner (procs w' q) = true /\ sock w' = Bound q /\ listening w' q = true) /\
  hist w' = hist w /\ (forall r, r <> q -> (In r (execd w') <-> In r (execd w))) /\
  (forall r, r <> q -> pc (procs w r) <= pcProbe -> pcProbe < pc (procs w' r) -> refused (procs w' r) = true).
Proof. exact after_bind. Qed.
Print Assumptions C16_after_bind.

Theorem C16_reachable_inv : forall (s0 : sockst) (sched : list label) (w : world),
  (forall p, s0 <> Bound p) -> run sched (init s0) = Some w -> L w /\ I w.
Proof. exact reachable_inv. Qed.
Print Assumptions C16_reachable_inv.

Example C16_after_bind_premise_reached :
  (exists w, run (does 0 9) (init Absent) = Some w /\ owner (procs w 0) = true) /\
  (exists w, run (does 0 9) (init Stale) = Some w /\ owner (procs w 0) = true).
Proof. exact owner_reached. Qed.

(* MUTUAL EXCLUSION, in full: any number of processes, every interleaving, from a clean or stale socket path.
   At most one process is inside its probe-and-bind section; at most one is past it un-refused and still owns the
   socket path; two starts never execute steps at the same time; the owner's endpoint answers; a run that executed
   earlier had removed its socket before the active one passed its probe; nobody fails to bind and the loser
   (refused) recorded and executed nothing. *)
Theorem C16_mutual_exclusion : forall (s0 : sockst) (sched : list label) (w : world),
  (forall q, s0 <> Bound q) -> run sched (init s0) = Some w ->
  (forall p q, in_section (procs w p) = true -> in_section (procs w q) = true -> p = q) /\
  (forall p q, owner (procs w p) = true -> owner (procs w q) = true -> p = q) /\
  (forall p q, active (procs w p) = true -> active (procs w q) = true -> p = q) /\
  (forall p, owner (procs w p) = true -> sock w = Bound p /\ listening w p = true) /\
  (forall p q, p <> q -> In p (execd w) -> active (procs w q) = true -> pcShutUnlink < pc (procs w p)) /\
  (forall p, bindfail (procs w p) = false) /\
  (forall p, refused (procs w p) = true -> ~ In p (hist w) /\ ~ In p (execd w)).
Proof. exact mutual_exclusion. Qed.
Print Assumptions C16_mutual_exclusion.

(* The four schedules that refuted the property before the repair, on the repaired protocol. *)
(* both probe before either binds: not an execution any more (the second Lock is not enabled) ... *)
Example C16_race_not_executable : run (does 0 4 ++ does 1 3) (init Absent) = None.
Proof. exact race_not_executable. Qed.
(* ... the second start waits, probes after the first's bind and is refused *)
Example C16_race_repaired :
  exists w, run (does 0 4 ++ does 1 2 ++ does 0 7 ++ does 1 2 ++ does 0 5) (init Absent) = Some w /\
            outcomes 2 w = [(1, true, true); (2, false, false)] /\ hist w = [0] /\ execd w = [0].
Proof. exact race_repaired. Qed.
Example C16_third_start_repaired :
  exists w, run (does 0 11 ++ does 1 4 ++ does 2 4) (init Absent) = Some w /\
            outcomes 3 w = [(0, true, true); (2, false, false); (2, false, false)] /\ answering w = true.
Proof. exact third_start_repaired. Qed.
Example C16_bind_first_not_executable : run (does 0 8 ++ does 1 3) (init Absent) = None.
Proof. exact bind_first_not_executable. Qed.
Example C16_late_unlink_repaired :
  exists w, run (does 0 14 ++ does 1 11 ++ does 0 2 ++ does 2 4) (init Absent) = Some w /\
            outcomes 3 w = [(1, true, true); (0, true, true); (2, false, false)] /\ sock w = Bound 1 /\ answering w = true.
Proof. exact late_unlink_repaired. Qed.

(* F16b - a save of the DAG definition (temp file + rename: a new inode) between one start's lock and its bind.  With the
   lock on the definition file (a924e5c) the second start got the lock at once and both executed; with the lock on a file
   of its own the save is invisible to the protocol (label Save, quantified over in every theorem above). *)
Example C16_save_race_refuted_before_F16b :
  exists w, run_a924 (does 0 4 ++ [Save] ++ does 1 11 ++ does 0 7) (init Absent) = Some w /\
            active (procs w 0) = true /\ active (procs w 1) = true /\ mem 0 (execd w) = true /\ mem 1 (execd w) = true /\
            sock w = Bound 0 /\ listening w 1 = true.
Proof. exact save_race_refuted_before_F16b. Qed.
Example C16_save_race_not_executable : run (does 0 4 ++ [Save] ++ does 1 3) (init Absent) = None.
Proof. exact save_race_not_executable. Qed.
Example C16_save_race_repaired :
  exists w, run (does 0 4 ++ [Save] ++ does 1 2 ++ does 0 7 ++ does 1 2 ++ does 0 5) (init Absent) = Some w /\
            outcomes 2 w = [(1, true, true); (2, false, false)] /\ hist w = [0] /\ execd w = [0].
Proof. exact save_race_repaired. Qed.
