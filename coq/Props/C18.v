(* C18 - DAG definitions are created, saved, renamed and deleted safely.
   Model: DagStore/Model.v (dag_store.go, client.go Rename/DeleteDAG, util.AddYamlExtension, loader.craftFilePath,
   jsondb Rename/RemoveAll at the abstract level); proofs: DagStore/Proofs.v.
   Tie to the code: tools/props/C18.py (op sequences through the real client/DAGStore/jsondb replayed on `step`,
   property monitors on the dumps, strace kill enumeration of one real UpdateSpec against `crash_fs`).

   Every theorem quantifies over an ARBITRARY world w (definitions, histories, flags), hence over the world
   reached by any sequence of operations interleaved with recorded runs; `valid` (the loader's verdict on a text),
   `meta_ok` and the DAGs directory `dir` are universally quantified too.

   The model describes the REPAIRED code.  Before /repo commits 87dde6e / e29932b C18_rename_fresh and C18_save_atomic
   were false of the code (F18a: DAGStore.Rename was a bare os.Rename; F18b: os.WriteFile truncates before it
   writes); the inputs that showed it are positive Examples below.  Before fe0ec16 the name -> path rules disagreed
   on names with a foreign extension (F18c); now they agree on every id (proved on strings: loc_facts), so the
   rename-carries / delete-other-DAG theorems hold for every id that is a single path element, with an absolute
   DAGs directory. *)
From Coq Require Import List String ZArith.
Import ListNotations.
From BD.DagStore Require Import Model Proofs.
Open Scope string_scope.

(* Create on a name that is taken fails and changes nothing. *)
Theorem C18_create_fresh : forall valid meta_ok dir (w : world) n s,
  fs_get (file_loc dir n) (w_defs w) <> None ->
  step valid meta_ok dir w (OCreate n s) = (w, RExists, []).
Proof. exact create_fresh. Qed.
Print Assumptions C18_create_fresh.

(* ... and on a free name it creates exactly that file with exactly that text. *)
Theorem C18_create_new : forall valid meta_ok dir (w : world) n s,
  fs_get (file_loc dir n) (w_defs w) = None ->
  step_res valid meta_ok dir w (OCreate n s) = ROk /\
  fs_get (file_loc dir n) (w_defs (step_w valid meta_ok dir w (OCreate n s))) = Some s /\
  (forall q, q <> file_loc dir n -> fs_get q (w_defs (step_w valid meta_ok dir w (OCreate n s))) = fs_get q (w_defs w)) /\
  w_hist (step_w valid meta_ok dir w (OCreate n s)) = w_hist w /\
  w_flags (step_w valid meta_ok dir w (OCreate n s)) = w_flags w.
Proof.
  intros valid meta_ok dir w n s H. unfold step_res, step_w. rewrite create_free by exact H. simpl.
  rewrite fs_get_set, String.eqb_refl. repeat split; auto. intros. now rewrite fs_get_set, neq_eqb.
Qed.
Print Assumptions C18_create_new.

(* Rename - through the client or the store alone - onto a name that another definition has is refused and
   changes nothing: no definition, no history, no flag (no premise on the names). *)
Theorem C18_rename_fresh : forall valid meta_ok dir (w : world) old new,
  file_loc dir old <> file_loc dir new -> fs_get (file_loc dir new) (w_defs w) <> None ->
  step_res valid meta_ok dir w (ORename old new) <> ROk /\
  step_w valid meta_ok dir w (ORename old new) = w /\
  step valid meta_ok dir w (OStoreRename old new) = (w, RExists, []).
Proof.
  intros valid meta_ok dir w old new N T. pose proof (store_rename_taken dir _ _ _ N T) as S.
  rewrite <- and_assoc. split; [apply (rename_store_refused _ _ _ _ _ _ _ _ S); discriminate|].
  now rewrite step_store_rename, S.
Qed.
Print Assumptions C18_rename_fresh.

(* ... and in every case (client or store level, accepted or not) only the source and the target can change. *)
Theorem C18_rename_others_untouched : forall valid meta_ok dir (w : world) old new q,
  q <> file_loc dir old -> q <> file_loc dir new ->
  fs_get q (w_defs (step_w valid meta_ok dir w (ORename old new))) = fs_get q (w_defs w) /\
  fs_get q (w_defs (step_w valid meta_ok dir w (OStoreRename old new))) = fs_get q (w_defs w).
Proof.
  intros valid meta_ok dir w old new q N1 N2. split.
  - destruct (rename_world valid meta_ok dir w old new) as (_ & [E|S]); [now rewrite E|].
    now apply (store_rename_others _ _ _ _ _ _ S).
  - unfold step_w. rewrite step_store_rename.
    destruct (store_rename dir (w_defs w) old new) as [[] d] eqn:S; simpl; auto.
    now apply (store_rename_others _ _ _ _ _ _ S).
Qed.
Print Assumptions C18_rename_others_untouched.

(* After UpdateSpec name s the file holds s if s is valid (and the file existed) and the whole world is unchanged
   otherwise; no other file, no history, no flag is touched. *)
Theorem C18_save_valid : forall valid meta_ok dir (w : world) n s,
  let w' := step_w valid meta_ok dir w (OSave n s) in
  ((valid s = true /\ fs_get (file_loc dir n) (w_defs w) <> None /\ step_res valid meta_ok dir w (OSave n s) = ROk /\
    fs_get (file_loc dir n) (w_defs w') = Some s)
   \/ (w' = w /\ step_res valid meta_ok dir w (OSave n s) <> ROk)) /\
  (forall q, q <> file_loc dir n -> fs_get q (w_defs w') = fs_get q (w_defs w)) /\
  w_hist w' = w_hist w /\ w_flags w' = w_flags w.
Proof.
  intros valid meta_ok dir w n s w'. subst w'. unfold step_w, step_res.
  destruct (valid s) eqn:V.
  - destruct (fs_get (file_loc dir n) (w_defs w)) eqn:G.
    + rewrite save_valid_ok by (auto; congruence). simpl. rewrite fs_get_set, String.eqb_refl. split; [left|].
      * repeat split; auto; congruence.
      * repeat split; auto. intros. now rewrite fs_get_set, neq_eqb.
    + rewrite save_missing by auto. simpl. split; [right; split; congruence|auto].
  - rewrite save_invalid by auto. simpl. split; [right; split; congruence|auto].
Qed.
Print Assumptions C18_save_valid.

Theorem C18_save_invalid_nothing : forall valid meta_ok dir (w : world) n s,
  valid s = false -> step valid meta_ok dir w (OSave n s) = (w, RInvalid, []).
Proof. exact save_invalid. Qed.
Print Assumptions C18_save_invalid_nothing.

(* For EVERY sequence of client operations interleaved with recorded runs, starting from the empty store, every
   definition file holds a text the loader accepts (induction over the sequence). *)
Theorem C18_defs_always_valid : forall valid meta_ok dir tmpl, valid tmpl = true ->
  forall ops, Forall (client_op tmpl) ops ->
  defs_valid valid (run_ops valid meta_ok dir empty_world ops).
Proof.
  intros valid meta_ok dir tmpl V ops F. apply (run_ops_valid valid meta_ok dir tmpl V); [exact F|]. intros p t. discriminate.
Qed.
Print Assumptions C18_defs_always_valid.

(* In EVERY crash state of UpdateSpec - cut = number of completed primitive steps of
   [validate; exists?; create temp; write; chmod; sync; close; rename], t = bytes of a torn write, rnd = the
   name os.CreateTemp chose - the definition holds the complete old or the complete new text. *)
Theorem C18_save_atomic : forall valid dir f n s rnd cut t,
  fs_get (file_loc dir n) (crash_fs valid dir f n s rnd cut t) = fs_get (file_loc dir n) f \/
  fs_get (file_loc dir n) (crash_fs valid dir f n s rnd cut t) = Some s.
Proof.
  intros. destruct (Compare_dec.le_lt_dec cut 7) as [L|L]; [left; now apply crash_before_rename|].
  destruct (valid s) eqn:V; [|left; now rewrite crash_invalid].
  destruct (fs_get (file_loc dir n) f) eqn:G; [|left; now rewrite crash_missing].
  right. apply crash_after_rename; [exact V| |exact L]. now rewrite G.
Qed.
Print Assumptions C18_save_atomic.

(* more precisely: old until the final rename, new after it; a rejected text changes nothing at any point *)
Theorem C18_save_atomic_before : forall valid dir f n s rnd cut t,
  (cut <= 7)%nat -> fs_get (file_loc dir n) (crash_fs valid dir f n s rnd cut t) = fs_get (file_loc dir n) f.
Proof. exact crash_before_rename. Qed.
Print Assumptions C18_save_atomic_before.

Theorem C18_save_atomic_after : forall valid dir f n s rnd cut t,
  valid s = true -> fs_get (file_loc dir n) f <> None -> (8 <= cut)%nat ->
  fs_get (file_loc dir n) (crash_fs valid dir f n s rnd cut t) = Some s.
Proof. exact crash_after_rename. Qed.
Print Assumptions C18_save_atomic_after.

Theorem C18_save_atomic_rejected : forall valid dir f n s rnd cut t,
  valid s = false -> crash_fs valid dir f n s rnd cut t = f.
Proof. exact crash_invalid. Qed.
Print Assumptions C18_save_atomic_rejected.

(* A FAULT instead of a kill: whichever primitive step of the save returns an error (the temporary file cannot be
   created or written, chmod / sync / close / rename fail), the definition holds the old text, the temporary file is
   removed and no other file is touched - the save is rejected, there is no second attempt on the definition itself. *)
Theorem C18_save_fault_old : forall valid dir f n s rnd k, (k <= 7)%nat ->
  fs_get (file_loc dir n) (fault_fs valid dir f n s rnd k) = fs_get (file_loc dir n) f /\
  fs_get (tmp_of (file_loc dir n) rnd) (fault_fs valid dir f n s rnd k) = None /\
  (forall q, q <> file_loc dir n -> q <> tmp_of (file_loc dir n) rnd -> fs_get q (fault_fs valid dir f n s rnd k) = fs_get q f).
Proof.
  intros valid dir f n s rnd k K. unfold fault_fs. pose proof (tmp_ne (file_loc dir n) rnd) as NE.
  split; [|split]; [| |intros q _ N]; rewrite fs_get_del.
  - rewrite neq_eqb by congruence. apply prefix_early; congruence.
  - now rewrite String.eqb_refl.
  - rewrite neq_eqb by auto. now apply prefix_early.
Qed.
Print Assumptions C18_save_fault_old.

(* no crash state touches a file other than the definition and the temporary file *)
Theorem C18_save_crash_local : forall valid dir f n s rnd cut t q,
  q <> file_loc dir n -> q <> tmp_of (file_loc dir n) rnd ->
  fs_get q (crash_fs valid dir f n s rnd cut t) = fs_get q f.
Proof.
  intros valid dir f n s rnd cut t q N NT.
  destruct (Compare_dec.le_lt_dec cut 7) as [L|L]; [now apply crash_early|].
  rewrite crash_fs_ge, run_save by exact L. destruct (_ && _)%bool; [|reflexivity].
  now rewrite fs_get_set, fs_get_del, !fs_get_set, !neq_eqb.
Qed.
Print Assumptions C18_save_crash_local.

(* the temporary file is never an entry of the DAG listing, whatever else the directory holds *)
Theorem C18_save_temp_not_listed : forall meta_ok dir g p rnd,
  plain_str rnd = true -> list_entry meta_ok dir g (tmp_of p rnd) = None.
Proof.
  intros meta_ok dir g p rnd H. unfold list_entry, base_in_dir.
  destruct (strip_prefix (dir ++ "/") (tmp_of p rnd)) as [b|] eqn:S; auto.
  destruct (has_slash b || String.eqb b "")%bool; auto.
  apply strip_prefix_some in S.
  assert (E : ext b = ".tmp-" ++ rnd).
  { rewrite <- (ext_tmp p rnd H). fold (tmp_of p rnd). rewrite S, app_assoc_s.
    unfold ext. now rewrite (ext_go_sep ch_slash dir b). }
  unfold is_yaml_file. rewrite E. reflexivity.
Qed.
Print Assumptions C18_save_temp_not_listed.

(* all steps done = the operation; the temporary name is absent beforehand because os.CreateTemp picks a name
   that is not in use *)
Theorem C18_save_crash_complete : forall valid meta_ok dir (w : world) n s rnd cut t q, (8 <= cut)%nat ->
  fs_get (tmp_of (file_loc dir n) rnd) (w_defs w) = None ->
  fs_get q (crash_fs valid dir (w_defs w) n s rnd cut t) = fs_get q (w_defs (step_w valid meta_ok dir w (OSave n s))).
Proof.
  intros valid meta_ok dir w n s rnd cut t q C T.
  rewrite crash_fs_ge, run_save by auto. unfold step_w.
  destruct (valid s) eqn:V; [|now rewrite save_invalid].
  destruct (fs_mem (file_loc dir n) (w_defs w)) eqn:M;
    [apply fs_mem_true in M; rewrite save_valid_ok by auto|apply fs_mem_false in M; now rewrite save_missing].
  simpl. rewrite !fs_get_set, fs_get_del, !fs_get_set.
  destruct (String.eqb (file_loc dir n) q); [reflexivity|].
  destruct (String.eqb_spec (tmp_of (file_loc dir n) rnd) q) as [<-|]; auto.
Qed.
Print Assumptions C18_save_crash_complete.

(* After an accepted rename the new name holds the old bytes, the old name is gone, the history recorded for the
   old name answers under the new one (the target was free), and nothing else changes.  For every pair
   of ids that are single path elements. *)
Theorem C18_rename_carries : forall valid meta_ok dir, is_abs dir = true -> forall (w : world) old new,
  has_slash old = false -> has_slash new = false ->
  step_res valid meta_ok dir w (ORename old new) = ROk ->
  let w' := step_w valid meta_ok dir w (ORename old new) in
  fs_get (file_loc dir new) (w_defs w') = fs_get (file_loc dir old) (w_defs w) /\
  fs_get (file_loc dir old) (w_defs w) <> None /\
  (file_loc dir old <> file_loc dir new ->
     fs_get (file_loc dir new) (w_defs w) = None /\
     fs_get (file_loc dir old) (w_defs w') = None /\
     h_get (dag_loc dir new) (w_hist w') = (h_get (dag_loc dir old) (w_hist w) ++ h_get (dag_loc dir new) (w_hist w))%list /\
     h_get (dag_loc dir old) (w_hist w') = []) /\
  (file_loc dir old = file_loc dir new -> w' = w) /\
  (forall l, l <> dag_loc dir old -> l <> dag_loc dir new -> h_get l (w_hist w') = h_get l (w_hist w)) /\
  (forall q, q <> file_loc dir old -> q <> file_loc dir new -> fs_get q (w_defs w') = fs_get q (w_defs w)) /\
  w_flags w' = w_flags w.
Proof.
  intros valid meta_ok dir A w old new O1 O2. unfold step_res, step_w. rewrite rename_eq by assumption.
  destruct (fs_get (file_loc dir old) (w_defs w)) as [b|] eqn:G; [|discriminate]. destruct (valid b); [|discriminate].
  destruct (store_rename dir (w_defs w) old new) as [[] d] eqn:S; try discriminate. intros _. simpl.
  destruct (store_rename_get _ _ _ _ _ S) as (b' & G' & GN & GO & GE & OT).
  assert (b' = b) by congruence. subst b'.
  rewrite (dag_loc_is_loc dir old O1), (dag_loc_is_loc dir new O2).
  repeat split; try congruence; auto.
  - now apply GO.
  - now apply GO.
  - now rewrite h_get_rename, (neq_eqb (file_loc dir old)), String.eqb_refl by congruence.
  - now rewrite h_get_rename, String.eqb_refl.
  - intros E. rewrite (GE E), E, h_rename_same. now destruct w.
  - intros. destruct (String.eqb_spec (file_loc dir old) (file_loc dir new)) as [E|E]; [now rewrite E, h_rename_same|].
    now rewrite h_get_rename, !neq_eqb.
Qed.
Print Assumptions C18_rename_carries.

(* a client rename that is refused - for whatever reason - changes nothing *)
Theorem C18_rename_failed_unchanged : forall valid meta_ok dir, is_abs dir = true -> forall (w : world) old new,
  has_slash old = false -> has_slash new = false ->
  step_res valid meta_ok dir w (ORename old new) <> ROk -> step_w valid meta_ok dir w (ORename old new) = w.
Proof. intros valid meta_ok dir A w old new O1 O2. now apply step_failed_unchanged. Qed.
Print Assumptions C18_rename_failed_unchanged.

(* the string facts behind it: for every id without a slash the definition file IS the location the loader gives
   the DAG, AddYamlExtension leaves it alone and it is absolute *)
Theorem C18_name_rules_agree : forall dir n, has_slash n = false ->
  craft (file_loc dir n) = file_loc dir n /\ add_yaml_ext (file_loc dir n) = file_loc dir n /\
  (is_abs dir = true -> is_abs (file_loc dir n) = true).
Proof. exact loc_facts. Qed.
Print Assumptions C18_name_rules_agree.

(* Delete removes the definition and the history of the given location and nothing else: every other path, every
   other location, every flag is identical. *)
Theorem C18_delete_local : forall valid meta_ok dir (w : world) n l,
  let w' := step_w valid meta_ok dir w (ODelete n l) in
  (fs_get (file_loc dir n) (w_defs w) <> None -> step_res valid meta_ok dir w (ODelete n l) = ROk) /\
  fs_get (file_loc dir n) (w_defs w') = None /\
  h_get l (w_hist w') = [] /\
  (forall q, q <> file_loc dir n -> fs_get q (w_defs w') = fs_get q (w_defs w)) /\
  (forall m, m <> l -> h_get m (w_hist w') = h_get m (w_hist w)) /\
  w_flags w' = w_flags w.
Proof. exact delete_local. Qed.
Print Assumptions C18_delete_local.

(* In terms of DAGs: deleting DAG n the way the API does leaves the definition and the history of
   every other DAG m as they were. *)
Theorem C18_delete_other_dag : forall valid meta_ok dir (w : world) n m,
  has_slash n = false -> has_slash m = false -> file_loc dir m <> file_loc dir n ->
  let w' := step_w valid meta_ok dir w (ODelete n (dag_loc dir n)) in
  fs_get (file_loc dir m) (w_defs w') = fs_get (file_loc dir m) (w_defs w) /\
  h_get (dag_loc dir m) (w_hist w') = h_get (dag_loc dir m) (w_hist w).
Proof.
  intros valid meta_ok dir w n m O1 O2 N w'. subst w'.
  destruct (delete_local valid meta_ok dir w n (dag_loc dir n)) as (_ & _ & _ & D & H & _).
  split; [now apply D|]. apply H. rewrite (dag_loc_is_loc dir n O1), (dag_loc_is_loc dir m O2). auto.
Qed.
Print Assumptions C18_delete_other_dag.

(* the inputs on which the two statements failed for names with a foreign extension before fe0ec16 (F18c) *)
Example C18_ex_delete_foreign_extension :
  file_loc "/d" "a.b" = "/d/a.b.yaml" /\ file_loc "/d" "a.b.yaml" = "/d/a.b.yaml" /\ dag_loc "/d" "a.b" = "/d/a.b.yaml" /\
  step all_valid all_valid "/d" w_dotted (ODelete "a.b" (dag_loc "/d" "a.b")) =
    (mkW [("/d/a.yaml", "u")] [("/d/a.b.yaml", []); ("/d/a.yaml", [mkRun 200 [mkStatus "q" 4 []]])] [], ROk, []).
Proof. exact ex_delete_foreign_extension. Qed.

Example C18_ex_rename_foreign_extension :
  step all_valid all_valid "/d" (mkW [("/d/a.yaml", "t")] [("/d/a.yaml", [mkRun 100 [mkStatus "r" 4 []]])] []) (ORename "a" "v1.2") =
    (mkW [("/d/v1.2.yaml", "t")] [("/d/a.yaml", []); ("/d/v1.2.yaml", [mkRun 100 [mkStatus "r" 4 []]])] [], ROk, []) /\
  snd (step all_valid all_valid "/d" (mkW [("/d/v1.2.yaml", "t")] [] []) OList) = ["v1.2.yaml"] /\
  file_loc "/d" "a.yml" = "/d/a.yaml" /\ file_loc "/d" "a b" = "/d/a b.yaml".
Proof. exact ex_rename_foreign_extension. Qed.

(* Non-vacuity: the premises are met by concrete non-trivial states. *)
Example C18_ex_create : fs_get (file_loc "/d" "a") (w_defs w_two) <> None /\
  step all_valid all_valid "/d" w_two (OCreate "a" "x") = (w_two, RExists, []).
Proof. exact ex_create_fresh. Qed.

Example C18_ex_rename_carries :
  step_res all_valid all_valid "/d" w_two (ORename "a" "c") = ROk /\
  fs_get "/d/c.yaml" (w_defs (step_w all_valid all_valid "/d" w_two (ORename "a" "c"))) = Some "text of a" /\
  h_get "/d/c.yaml" (w_hist (step_w all_valid all_valid "/d" w_two (ORename "a" "c"))) = [mkRun 100 [mkStatus "ra" 4 []]] /\
  h_get "/d/b.yaml" (w_hist (step_w all_valid all_valid "/d" w_two (ORename "a" "c"))) = [mkRun 200 [mkStatus "rb" 2 []]].
Proof. exact ex_rename_carries. Qed.

Example C18_ex_delete :
  step_res all_valid all_valid "/d" w_two (ODelete "a" (dag_loc "/d" "a")) = ROk /\
  w_defs (step_w all_valid all_valid "/d" w_two (ODelete "a" (dag_loc "/d" "a"))) = [("/d/b.yaml", "text of b")] /\
  h_get "/d/b.yaml" (w_hist (step_w all_valid all_valid "/d" w_two (ODelete "a" (dag_loc "/d" "a")))) = [mkRun 200 [mkStatus "rb" 2 []]].
Proof. exact ex_delete_local. Qed.

(* the inputs on which C18_rename_fresh / C18_save_atomic failed before 87dde6e / e29932b (F18a, F18b) *)
Example C18_ex_rename_fresh :
  file_loc "/d" "a" <> file_loc "/d" "b" /\ fs_get (file_loc "/d" "b") (w_defs w_two) <> None /\
  step all_valid all_valid "/d" w_two (ORename "a" "b") = (w_two, RExists, []) /\
  step all_valid all_valid "/d" w_two (OStoreRename "a" "b") = (w_two, RExists, []).
Proof. exact ex_rename_fresh. Qed.

Example C18_ex_save_fault :
  map (fun k => fault_fs all_valid "/d" [("/d/a.yaml", "old text")] "a" "new text" "42" k) [2; 3; 4; 7]%nat
  = [[("/d/a.yaml", "old text")]; [("/d/a.yaml", "old text")]; [("/d/a.yaml", "old text")]; [("/d/a.yaml", "old text")]].
Proof. exact ex_save_fault. Qed.

Example C18_ex_save_atomic :
  map (fun cut => fs_get "/d/a.yaml" (crash_fs all_valid "/d" [("/d/a.yaml", "old text")] "a" "new text" "42" cut 0))
      [0; 1; 2; 3; 4; 5; 6; 7; 8; 9]%nat
  = [Some "old text"; Some "old text"; Some "old text"; Some "old text"; Some "old text"; Some "old text";
     Some "old text"; Some "old text"; Some "new text"; Some "new text"] /\
  crash_fs all_valid "/d" [("/d/a.yaml", "old text")] "a" "new text" "42" 3 4
  = [("/d/a.yaml", "old text"); ("/d/a.yaml.tmp-42", "new ")] /\
  snd (step all_valid all_valid "/d" (mkW (crash_fs all_valid "/d" [("/d/a.yaml", "old text")] "a" "new text" "42" 5 0) [] []) OList)
  = ["a.yaml"].
Proof. exact ex_save_atomic. Qed.
