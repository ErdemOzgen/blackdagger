(* C01 - a step never starts before everything it depends on has finished.
   Model: Sched/Model.v.  Proofs: Sched/Step.v (what one label does), Sched/Proofs.v (the invariant), Sched/ProofsTrace.v (visible trace),
   Sched/ReplayProofs.v (the acceptor).  Tie to the code: tools/props/C01.py.
   Premise: norepeat c (no repeatPolicy step).  The premise is NEEDED, it is not a convenience: a step with repeatPolicy
   and continueOn.failure whose command fails is labelled failed and keeps repeating, so its dependents are released and
   its command starts again after theirs - C01_repeating_dependency_refuted below; the same on the real scheduler
   (findings/C15-repeat-continue-on-failure.json).  A repeating step WITHOUT continueOn.failure stays running until a stop
   request, so its dependents never start (C05_no_new_start).  Since fix f9e55a3 no premise about the done channel is
   needed.
   Modelled away (trusted base): node teardown (log flush) does not fail - the code turns a finished node into
   failed when the flush fails, after dependents may already have looked. *)
From Coq Require Import List.
Import ListNotations.
From BD.Sched Require Import Model Proofs Replay ReplayProofs ProofsTrace Examples Examples2.

(* For every configuration (any dependency lists, flags, retry limits, preconditions, maxActiveRuns), every
   execution ls1 ++ WExecStart i :: ls2 of the scheduler model (= every outcome assignment and interleaving) and
   every dependency d of i: at the instant i's command starts, d is finished, or failed with continueOn.failure, or
   skipped with continueOn.skipped; d has no live worker (not setting up, executing, deciding or waiting to
   retry); and d's command never starts again afterwards - it has finished its last attempt. *)
Theorem C01_start_after_deps : forall c : cfg, norepeat c ->
  forall ls1 i ls2 s1 s2 s3,
    run c (init c) ls1 = Some s1 -> step c s1 (WExecStart i) = Some s2 -> run c s2 ls2 = Some s3 ->
    forall d, In d (deps (steps c i)) ->
      okterm c s1 d /\ active (ph (nd s1 d)) = false /\ ph (nd s1 d) <> PExec /\ ~ In (WExecStart d) ls2.
Proof. exact C01_execution. Qed.
Print Assumptions C01_start_after_deps.

(* The same on the VISIBLE trace of every execution (what the harness observes of the real scheduler): when step i's
   Run is entered no dependency has an open Run (opn_after = the set of open Run calls), and no dependency's Run is
   entered again later. *)
Theorem C01_on_every_trace : forall c : cfg, norepeat c ->
  forall ls1 i ls2 s, run c (init c) (ls1 ++ WExecStart i :: ls2) = Some s ->
  forall d, In d (deps (steps c i)) ->
    ~ In d (opn_after [] (vis ls1)) /\ ~ In (VStart d) (vis ls2).
Proof. exact C01_trace. Qed.
Print Assumptions C01_on_every_trace.

(* the statuses a dependent relies on never change again *)
Theorem C01_permitting_status_is_stable : forall c : cfg, norepeat c ->
  forall s l s', Inv c s -> step c s l = Some s' -> forall d, okterm c s d -> okterm c s' d.
Proof. intros c _. exact (step_okterm_stable c). Qed.
Print Assumptions C01_permitting_status_is_stable.

(* The tie to the implementation is sound in this direction: a trace of the real scheduler that the acceptor accepts IS
   the visible projection (command starts and ends) of an execution of the model ending in Done with the observed final
   node table, Schedule error and Status - so every theorem about all executions holds of every accepted run.  (That
   real traces ARE accepted is what the correspondence measures on every run of the check.) *)
Theorem C01_accept_sound : forall c ivl eps fin tr err status, accept c ivl eps fin tr err status = true ->
  exists ls s, run c (init c) ls = Some s /\ vis ls = untime tr /\ pc s = LDone /\
               final_ok c fin s = true /\ lasterr s = err /\ ocode (overall c s) = status.
Proof. exact accept_sound. Qed.
Print Assumptions C01_accept_sound.

(* Non-vacuity: a complete execution of the diamond a -> {b,c} -> d (b retried once) reaches every hypothesis with
   i = d and dependencies [b; c], and runs to completion. *)
Example C01_nonvacuous :
  (donech diamond = true /\ norepeat diamond) /\
  exists s1 s2 s3, run diamond (init diamond) diamond_prefix = Some s1 /\
                   step diamond s1 (WExecStart 3) = Some s2 /\ run diamond s2 diamond_rest = Some s3 /\
                   pc s3 = LDone /\ deps (steps diamond 3) = [1; 2].
Proof. split; [exact diamond_ok|]. apply ex_run3. vm_compute. auto. Qed.

(* Before fix f9e55a3, with done == nil the worker that had reset a retried node used to flip the relaunched,
   running attempt to finished, so that a dependent started while its dependency executed (reproduced on the real
   code, findings/C01-done-nil-stale-flip.json).  In the repaired model the same scenario - no done channel, first
   attempt failed, second attempt executing - leaves the dependency running and refuses the dependent. *)
Example C01_done_nil_flip_repaired :
  exists s, run flip_cfg (init flip_cfg) flip_exec = Some s /\
            norepeat flip_cfg /\ donech flip_cfg = false /\ maxActive flip_cfg = 1 /\
            In 0 (deps (steps flip_cfg 1)) /\ ph (nd s 0) = PExec /\ st (nd s 0) = NRunning /\
            step flip_cfg s (LCommit 1) = None.
Proof. exact stale_flip_repaired. Qed.

(* Why norepeat is a premise: repeatPolicy + continueOn.failure, the command fails: the step is labelled failed (which
   permits its dependent, step 1) and keeps repeating; its command starts again after step 1's (ls2 contains
   WExecStart 0) - with maxActiveRuns = 1 two commands then execute at once. *)
Example C01_repeating_dependency_refuted :
  maxActive repeat_cof_cfg = 1 /\ donech repeat_cof_cfg = true /\
  exists s1 s2 s3, run repeat_cof_cfg (init repeat_cof_cfg) repeat_cof_pre = Some s1 /\
    step repeat_cof_cfg s1 (WExecStart 1) = Some s2 /\ run repeat_cof_cfg s2 repeat_cof_post = Some s3 /\
    In 0 (deps (steps repeat_cof_cfg 1)) /\ In (WExecStart 0) repeat_cof_post /\
    st (nd s1 0) = NError /\ ph (nd s1 0) = PRepeatWait /\
    ph (nd s3 0) = PExec /\ ph (nd s3 1) = PExec /\ exec_count repeat_cof_cfg s3 = 2 /\ running_count repeat_cof_cfg s3 = 1.
Proof. exact repeat_cof_breaks_order_and_cap. Qed.

(* A command that cannot be created (the theorems above cover it: in the model it is the label WCreateFail, an attempt
   that fails without a command having been started): step 0 (retry limit 1, continueOn.failure, maxActiveRuns = 1)
   fails to create its command once, waits out the retry interval still RUNNING - dependents wait for the LAST attempt: step 1 is refused meanwhile -,
   then executes and succeeds; only then step 1 is launched. *)
Example C01_creation_failure_nonvacuous :
  norepeat cfail_cfg /\ maxActive cfail_cfg = 1 /\
  exists s1 s2, run cfail_cfg (init cfail_cfg) cfail_pre = Some s1 /\
    st (nd s1 0) = NRunning /\ ph (nd s1 0) = PRetryWait /\ rc (nd s1 0) = 1 /\ outs (nd s1 0) = [false] /\
    step cfail_cfg s1 (LCommit 1) = None /\ step cfail_cfg s1 (WExecStart 0) = None /\
    run cfail_cfg s1 cfail_post = Some s2 /\
    st (nd s2 0) = NSuccess /\ rc (nd s2 0) = 1 /\ att (nd s2 0) = 2 /\ outs (nd s2 0) = [true; false] /\
    ph (nd s2 1) = PExec.
Proof. exact cfail_retry_ok. Qed.
