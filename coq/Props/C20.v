(* C20 - control actions through the API respect the state of the run.
   Model: Api/Model.v (`post` = handler.go postAction / processUpdateStatus over client.go GetStatus,
   GetLatestStatus, GetStatusByRequestID, UpdateStatus, Start, Stop, Retry, ToggleSuspend; cmd/start.go
   removeQuotes) on the DagStore world; proofs: Api/Proofs.v.
   Tie to the code: tools/props/C20.py (the real handler over a real client / data store / sockets, the full
   state x action x argument table and random sequences replayed on `post`, property monitors on the dumps).

   All theorems quantify over EVERY world a (definitions, histories of all DAGs with any number of recorded
   runs, flags, live agents), every DAG id and every request body; valid / graph_ok (verdicts of the loader and
   of the graph check on a text), the DAGs directory and the exit status of a spawned retry are universally
   quantified.  `view a id = Some loc` = client.GetStatus(id) succeeds and the DAG's location is loc;
   `latest_status a loc` = the status the guards look at (live agent's answer, else last recorded status with
   running corrected to failed, else none). *)
From Coq Require Import List String Ascii Bool ZArith.
Import ListNotations.
From BD.DagStore Require Import Model.
From BD.Api Require Import Model Proofs.
Open Scope string_scope.

(* start while running: 400, world unchanged, nothing spawned *)
Theorem C20_start_guard : forall valid graph_ok meta_ok dir retry_ok a id b loc,
  b_action b = Some "start" -> view valid graph_ok dir (a_w a) id = Some loc -> latest_status a loc = st_running ->
  post valid graph_ok meta_ok dir retry_ok a id b = (400, a, []).
Proof. exact start_running. Qed.
Print Assumptions C20_start_guard.

(* stop while not running: 400, world unchanged, no stop request *)
Theorem C20_stop_guard : forall valid graph_ok meta_ok dir retry_ok a id b loc,
  b_action b = Some "stop" -> view valid graph_ok dir (a_w a) id = Some loc -> latest_status a loc <> st_running ->
  post valid graph_ok meta_ok dir retry_ok a id b = (400, a, []).
Proof.
  intros valid graph_ok meta_ok dir retry_ok a id b loc Hact Hview Hst. rewrite post_stop, Hview by auto.
  apply PeanoNat.Nat.eqb_neq in Hst. now rewrite Hst.
Qed.
Print Assumptions C20_stop_guard.

Theorem C20_stop_accepted : forall valid graph_ok meta_ok dir retry_ok a id b loc,
  b_action b = Some "stop" -> view valid graph_ok dir (a_w a) id = Some loc -> latest_status a loc = st_running ->
  live_get loc (a_live a) <> None ->
  post valid graph_ok meta_ok dir retry_ok a id b = (200, a, [EStop loc]).
Proof.
  intros valid graph_ok meta_ok dir retry_ok a id b loc Hact Hview Hst Hlive. rewrite post_stop, Hview, Hst by auto. simpl.
  destruct (live_get loc (a_live a)); [reflexivity|now elim Hlive].
Qed.
Print Assumptions C20_stop_accepted.

(* mark-success / mark-failed while running: 400, world unchanged, nothing started *)
Theorem C20_mark_guard : forall valid graph_ok meta_ok dir retry_ok a id b act loc,
  b_action b = Some act -> is_mark act -> view valid graph_ok dir (a_w a) id = Some loc -> latest_status a loc = st_running ->
  fst (fst (post valid graph_ok meta_ok dir retry_ok a id b)) = 400 /\
  snd (fst (post valid graph_ok meta_ok dir retry_ok a id b)) = a /\
  snd (post valid graph_ok meta_ok dir retry_ok a id b) = [].
Proof.
  intros valid graph_ok meta_ok dir retry_ok a id b act loc Hact Hmark Hview Hst.
  rewrite (post_mark _ _ _ _ _ _ _ _ _ Hact Hmark), Hview, mark_running by auto. auto.
Qed.
Print Assumptions C20_mark_guard.

(* The DAG's process owns the control socket but does not answer within the timeout (live status st_timeout): the
   guard on the latest status falls back to the recorded history, but a status edit is still refused - by
   UpdateStatus - with the world unchanged; a stop is refused as well. *)
Theorem C20_mark_unresponsive : forall valid graph_ok meta_ok dir retry_ok a id b act loc rq,
  b_action b = Some act -> is_mark act -> view valid graph_ok dir (a_w a) id = Some loc ->
  live_get loc (a_live a) = Some (rq, st_timeout) ->
  fst (fst (post valid graph_ok meta_ok dir retry_ok a id b)) <> 200 /\
  snd (fst (post valid graph_ok meta_ok dir retry_ok a id b)) = a /\
  snd (post valid graph_ok meta_ok dir retry_ok a id b) = [].
Proof.
  intros valid graph_ok meta_ok dir retry_ok a id b act loc rq HA HM HV HL.
  destruct (post_mark_refused _ _ meta_ok _ retry_ok _ _ _ _ _ HA HM HV) as (c & C & ->); [|simpl; auto].
  intros i r s j (_ & _ & _ & _ & U). unfold update_refused in U. rewrite HL in U. discriminate.
Qed.
Print Assumptions C20_mark_unresponsive.

Theorem C20_stop_unresponsive : forall valid graph_ok meta_ok dir retry_ok a id b loc rq,
  b_action b = Some "stop" -> view valid graph_ok dir (a_w a) id = Some loc ->
  live_get loc (a_live a) = Some (rq, st_timeout) ->
  post valid graph_ok meta_ok dir retry_ok a id b = (400, a, []).
Proof.
  intros valid graph_ok meta_ok dir retry_ok a id b loc rq HA HV HL. apply C20_stop_guard with (loc := loc); auto.
  exact (latest_unresponsive a loc rq HL).
Qed.
Print Assumptions C20_stop_unresponsive.

(* An accepted status edit: the DAG is not running; the run i of THIS DAG whose last status s carries the request
   id grows by ONE status s' that equals s except for the status of the named step j (and the top-level
   running -> failed relabel when that run is not the live one); every other run, every other DAG's history,
   every definition, flag and live agent is unchanged; nothing is started or stopped. *)
Theorem C20_mark_exact : forall valid graph_ok meta_ok dir retry_ok a id b act loc a' ev,
  b_action b = Some act -> is_mark act -> view valid graph_ok dir (a_w a) id = Some loc ->
  post valid graph_ok meta_ok dir retry_ok a id b = (200, a', ev) ->
  let rs := h_get loc (w_hist (a_w a)) in
  let rs' := h_get loc (w_hist (a_w a')) in
  ev = [] /\ a_live a' = a_live a /\ w_defs (a_w a') = w_defs (a_w a) /\ w_flags (a_w a') = w_flags (a_w a) /\
  (forall l, l <> loc -> h_get l (w_hist (a_w a')) = h_get l (w_hist (a_w a))) /\
  latest_status a loc <> st_running /\
  exists i r s j n s',
    nth_error rs i = Some r /\ last_line r = Some s /\ s_req s = b_reqid b /\
    nth_error (s_nodes s) j = Some n /\ n_name n = b_step b /\
    List.length rs' = List.length rs /\
    (forall k, k <> i -> nth_error rs' k = nth_error rs k) /\
    nth_error rs' i = Some (mkRun (r_stamp r) (r_lines r ++ [s'])) /\
    s_req s' = s_req s /\
    s_st s' = (if Nat.eqb (s_st s) st_running && negb (addressed_live a loc (b_reqid b)) then st_error else s_st s) /\
    List.length (s_nodes s') = List.length (s_nodes s) /\
    (forall k, k <> j -> nth_error (s_nodes s') k = nth_error (s_nodes s) k) /\
    nth_error (s_nodes s') j = Some (mkNode (b_step b) (mark_target act)).
Proof.
  intros valid graph_ok meta_ok dir retry_ok a id b act loc a' ev HA HM HV HP.
  rewrite (post_mark _ _ _ _ _ _ _ _ _ HA HM), HV in HP. revert HP. apply mark_inv.
  { intros c C _ E. now injection E as -> _ _. }
  intros i r s j (_ & _ & R) (P & N & LL & LN & _) E. injection E as <- <-.
  rewrite edited_hist, String.eqb_refl.
  repeat split; auto.
  { intros l L. rewrite edited_hist. apply String.eqb_neq in L. now rewrite String.eqb_sym, L. }
  destruct (relabel_fields (addressed_live a loc (b_reqid b)) s) as (RQ1 & NS & ST).
  set (s1 := if addressed_live a loc (b_reqid b) then s else correct s) in *.
  destruct (pick_idx_spec _ _ _ P) as (r0 & N0 & HR). assert (r0 = r) by congruence. subst r0.
  destruct (run_has_req_last _ _ HR) as (s0 & LL0 & RQ). assert (s0 = s) by congruence. subst s0.
  destruct (last_node_idx_spec _ _ _ LN) as (n & NN & NM). rewrite NS in NN.
  exists i, r, s, j, n, (set_node j (mark_target act) s1).
  repeat split; auto; simpl; rewrite ?NS.
  - apply upd_nth_length.
  - intros. now apply upd_nth_other.
  - erewrite upd_nth_same by eauto. reflexivity.
  - apply upd_nth_length.
  - intros. now apply upd_nth_other.
  - erewrite upd_nth_same by eauto. now rewrite NM.
Qed.
Print Assumptions C20_mark_exact.

(* An accepted start with parameters free of CR, LF and NUL (params_safe) runs exactly
   `start -p "<params>" <location>` (`start <location>` for empty parameters) and cmd/start.go's removeQuotes
   gives back exactly the parameters; the world is unchanged. *)
Theorem C20_start_params : forall valid graph_ok meta_ok dir retry_ok a id b loc,
  b_action b = Some "start" -> view valid graph_ok dir (a_w a) id = Some loc -> latest_status a loc <> st_running ->
  params_safe (b_params b) = true -> has_char ch_nul loc = false ->
  (b_params b = "" /\ post valid graph_ok meta_ok dir retry_ok a id b = (200, a, [ESpawn ["start"; loc]])) \/
  (b_params b <> "" /\ exists q, post valid graph_ok meta_ok dir retry_ok a id b = (200, a, [ESpawn ["start"; "-p"; q; loc]]) /\
                                 remove_quotes q = b_params b).
Proof.
  intros valid graph_ok meta_ok dir retry_ok a id b loc HA HV HL HS HN.
  rewrite (start_accepted _ _ _ _ _ _ _ _ _ HA HV HL).
  unfold params_safe in HS. apply andb_true_iff in HS. destruct HS as [HS N0]. apply andb_true_iff in HS. destruct HS as [N1 N2].
  apply negb_true_iff in N1, N2.
  unfold spawn. rewrite spawnable_start, N0, HN. unfold start_argv.
  destruct (String.eqb_spec (b_params b) "") as [E|E]; [left; auto|right]. split; auto.
  exists (quote (escape_arg (b_params b))). split; auto.
  rewrite remove_quotes_quote. now apply escape_fixed.
Qed.
Print Assumptions C20_start_params.

(* C20_start_params for ALL parameter strings is FALSE (F20a) - and the premise is the exact class:
   any CR or LF is rewritten, any NUL means nothing is started. *)
Theorem C20_start_params_refuted :
  exists p, params_safe p = false /\ remove_quotes (quote (escape_arg p)) <> p /\
            remove_quotes (quote (escape_arg p)) = "l1" ++ String ch_bslash "nl2".
Proof.
  exists ("l1" ++ String ch_lf "l2"). split; [reflexivity|]. rewrite remove_quotes_quote. split; [|reflexivity].
  (* the witness has a line feed *)
  intros E. apply escape_fixed in E. destruct E as [_ E]. discriminate E.
Qed.
Print Assumptions C20_start_params_refuted.

Theorem C20_start_params_crlf_rewritten : forall p,
  has_char ch_cr p || has_char ch_lf p = true -> remove_quotes (quote (escape_arg p)) <> p.
Proof. intros p H E. rewrite remove_quotes_quote in E. apply escape_fixed in E. destruct E as [E1 E2]. now rewrite E1, E2 in H. Qed.
Print Assumptions C20_start_params_crlf_rewritten.

Theorem C20_start_params_nul_nothing : forall p loc, has_char ch_nul p = true -> spawn (start_argv p loc) = [].
Proof. intros. unfold spawn. now rewrite spawnable_start, H. Qed.
Print Assumptions C20_start_params_nul_nothing.

(* Whatever the world, the DAG id and the body: an answer other than 200 means the world is unchanged and nothing
   was started or stopped (only a retry whose process then fails has been started).  For every action since fe0ec16
   (before it a rename to a name with a foreign suffix moved the file and still answered an error);
   standing assumptions: absolute DAGs directory, and for action rename both ids are single path elements. *)
Theorem C20_refused_nothing : forall valid graph_ok meta_ok dir retry_ok, is_abs dir = true -> forall a id b c a' ev,
  post valid graph_ok meta_ok dir retry_ok a id b = (c, a', ev) -> c <> 200 ->
  (b_action b = Some "rename" -> has_slash id = false /\ has_slash (b_value b) = false) ->
  a' = a /\ (ev = [] \/ (b_action b = Some "retry" /\ b_reqid b <> "" /\ retry_ok = false)).
Proof.
  intros valid graph_ok meta_ok dir retry_ok A a id b c a' ev HP HC HR.
  pose proof (post_quiet valid graph_ok meta_ok dir retry_ok A a id b HR) as Q. rewrite HP in Q. exact (Q HC).
Qed.
Print Assumptions C20_refused_nothing.

(* ... and these requests ARE refused: missing action, unknown action, unknown DAG, missing request id, missing
   step, unknown request id, unknown step, retry without request id, rename without a name, save of a rejected text *)
Theorem C20_refused_missing_action : forall valid graph_ok meta_ok dir retry_ok a id b,
  b_action b = None -> post valid graph_ok meta_ok dir retry_ok a id b = (400, a, []).
Proof. exact refused_missing_action. Qed.
Print Assumptions C20_refused_missing_action.

Theorem C20_refused_unknown_action : forall valid graph_ok meta_ok dir retry_ok a id b act,
  b_action b = Some act -> known_action act = false -> post valid graph_ok meta_ok dir retry_ok a id b = (400, a, []).
Proof. exact refused_unknown_action. Qed.
Print Assumptions C20_refused_unknown_action.

Theorem C20_refused_unknown_dag : forall valid graph_ok meta_ok dir retry_ok a id b act,
  b_action b = Some act -> act <> "save" -> view valid graph_ok dir (a_w a) id = None ->
  post valid graph_ok meta_ok dir retry_ok a id b = (400, a, []).
Proof. exact refused_unknown_dag. Qed.
Print Assumptions C20_refused_unknown_dag.

Theorem C20_refused_mark_malformed : forall valid graph_ok meta_ok dir retry_ok a id b act loc,
  b_action b = Some act -> is_mark act -> view valid graph_ok dir (a_w a) id = Some loc ->
  (b_reqid b = "" \/ b_step b = "") -> post valid graph_ok meta_ok dir retry_ok a id b = (400, a, []).
Proof.
  intros valid graph_ok meta_ok dir retry_ok a id b act loc H M V D.
  now rewrite (post_mark _ _ _ _ _ _ _ _ _ H M), V, mark_malformed.
Qed.
Print Assumptions C20_refused_mark_malformed.

Theorem C20_refused_mark_unknown_request : forall valid graph_ok meta_ok dir retry_ok a id b act loc,
  b_action b = Some act -> is_mark act -> view valid graph_ok dir (a_w a) id = Some loc ->
  pick_idx (b_reqid b) (h_get loc (w_hist (a_w a))) = None ->
  snd (fst (post valid graph_ok meta_ok dir retry_ok a id b)) = a /\
  snd (post valid graph_ok meta_ok dir retry_ok a id b) = [] /\
  fst (fst (post valid graph_ok meta_ok dir retry_ok a id b)) <> 200.
Proof.
  intros valid graph_ok meta_ok dir retry_ok a id b act loc H M V P.
  destruct (post_mark_refused _ _ meta_ok _ retry_ok _ _ _ _ _ H M V) as (c & C & ->); [|simpl; auto].
  intros i r s j (P' & _). congruence.
Qed.
Print Assumptions C20_refused_mark_unknown_request.

Theorem C20_refused_mark_unknown_step : forall valid graph_ok meta_ok dir retry_ok a id b act loc,
  b_action b = Some act -> is_mark act -> view valid graph_ok dir (a_w a) id = Some loc ->
  (forall r s, In r (h_get loc (w_hist (a_w a))) -> last_line r = Some s ->
               forall n, In n (s_nodes s) -> n_name n <> b_step b) ->
  snd (fst (post valid graph_ok meta_ok dir retry_ok a id b)) = a /\
  snd (post valid graph_ok meta_ok dir retry_ok a id b) = [] /\
  fst (fst (post valid graph_ok meta_ok dir retry_ok a id b)) <> 200.
Proof.
  intros valid graph_ok meta_ok dir retry_ok a id b act loc H M V NS.
  destruct (post_mark_refused _ _ meta_ok _ retry_ok _ _ _ _ _ H M V) as (c & C & ->); [|simpl; auto].
  intros i r s j (_ & N & LL & LN & _).
  apply last_node_idx_spec in LN. destruct LN as (n & NN & NM).
  destruct (relabel_fields (addressed_live a loc (b_reqid b)) s) as (_ & E & _). simpl in E. rewrite E in NN.
  apply nth_error_In in N. apply nth_error_In in NN. exact (NS r s N LL n NN NM).
Qed.
Print Assumptions C20_refused_mark_unknown_step.

Theorem C20_refused_retry_missing_request : forall valid graph_ok meta_ok dir retry_ok a id b,
  b_action b = Some "retry" -> b_reqid b = "" -> post valid graph_ok meta_ok dir retry_ok a id b = (400, a, []).
Proof.
  intros valid graph_ok meta_ok dir retry_ok a id b Hact Hreq. rewrite post_retry, Hreq by auto. destruct (view valid graph_ok dir (a_w a) id); auto.
Qed.
Print Assumptions C20_refused_retry_missing_request.

Theorem C20_refused_rename_missing_name : forall valid graph_ok meta_ok dir retry_ok a id b,
  b_action b = Some "rename" -> b_value b = "" -> post valid graph_ok meta_ok dir retry_ok a id b = (400, a, []).
Proof.
  intros valid graph_ok meta_ok dir retry_ok a id b Hact Hval. rewrite post_rename, Hval by auto. destruct (view valid graph_ok dir (a_w a) id); auto.
Qed.
Print Assumptions C20_refused_rename_missing_name.

Theorem C20_refused_save_invalid : forall valid graph_ok meta_ok dir retry_ok a id b,
  b_action b = Some "save" -> valid (b_value b) = false -> post valid graph_ok meta_ok dir retry_ok a id b = (500, a, []).
Proof. exact refused_save_invalid. Qed.
Print Assumptions C20_refused_save_invalid.

(* Non-vacuity: a DAG with an older failed run, a current run (running with a live agent / recorded running with
   nobody listening / failed) and a neighbour DAG with its own run and flag. *)
Example C20_ex_guards :
  post ok_all ok_all ok_all "/d" true a_running "a" (bd "start" "" "" "p") = (400, a_running, []) /\
  post ok_all ok_all ok_all "/d" true a_failed "a" (bd "stop" "" "" "") = (400, a_failed, []) /\
  post ok_all ok_all ok_all "/d" true a_running "a" (bd "mark-success" "rc" "s1" "") = (400, a_running, []) /\
  post ok_all ok_all ok_all "/d" true a_running "a" (bd "stop" "" "" "") = (200, a_running, [EStop "/d/a.yaml"]) /\
  view ok_all ok_all "/d" (a_w a_running) "a" = Some "/d/a.yaml" /\ latest_status a_running "/d/a.yaml" = st_running /\
  latest_status a_failed "/d/a.yaml" = 2%nat /\ latest_status a_crashed "/d/a.yaml" = 2%nat.
Proof. exact ex_guards. Qed.

Example C20_ex_unresponsive :
  latest_status a_unresponsive "/d/a.yaml" = 2%nat /\
  post ok_all ok_all ok_all "/d" true a_unresponsive "a" (bd "mark-success" "rc" "s1" "") = (500, a_unresponsive, []) /\
  post ok_all ok_all ok_all "/d" true a_unresponsive "a" (bd "mark-failed" "ro" "s2" "") = (500, a_unresponsive, []) /\
  post ok_all ok_all ok_all "/d" true a_unresponsive "a" (bd "stop" "" "" "") = (400, a_unresponsive, []).
Proof. exact ex_unresponsive. Qed.

Example C20_ex_mark_exact :
  post ok_all ok_all ok_all "/d" true a_crashed "a" (bd "mark-success" "rc" "s2" "") =
    (200, mkA (world_ex [mkStatus "rc" 1 [mkNode "s1" 4; mkNode "s2" 1]; mkStatus "rc" 2 [mkNode "s1" 4; mkNode "s2" 4]]) [], []) /\
  post ok_all ok_all ok_all "/d" true a_failed "a" (bd "mark-failed" "ro" "s2" "") =
    (200, mkA (mkW [("/d/a.yaml", "T1"); ("/d/ab.yaml", "T1")]
               [("/d/a.yaml", [mkRun 1000 [mkStatus "ro" 2 [mkNode "s1" 2; mkNode "s2" 0]; mkStatus "ro" 2 [mkNode "s1" 2; mkNode "s2" 2]];
                               mkRun 2000 [mkStatus "rc" 1 [mkNode "s1" 1; mkNode "s2" 0]; mkStatus "rc" 2 [mkNode "s1" 4; mkNode "s2" 2]]]);
                ("/d/ab.yaml", [mkRun 5000 [mkStatus "rn" 2 [mkNode "s1" 4; mkNode "s2" 2]]])] ["ab.suspend"]) [], []).
Proof. exact ex_mark_exact. Qed.

Example C20_ex_start_params :
  post ok_all ok_all ok_all "/d" true a_failed "a" (bd "start" "" "" "x=1 y") =
    (200, a_failed, [ESpawn ["start"; "-p"; quote "x=1 y"; "/d/a.yaml"]]) /\
  params_safe "x=1 y" = true /\ remove_quotes (quote "x=1 y") = "x=1 y".
Proof. exact ex_start_params. Qed.

Example C20_ex_refused :
  post ok_all ok_all ok_all "/d" true a_failed "a" (mkBody None "" "rc" "s1" "") = (400, a_failed, []) /\
  post ok_all ok_all ok_all "/d" true a_failed "a" (bd "frobnicate" "rc" "s1" "") = (400, a_failed, []) /\
  post ok_all ok_all ok_all "/d" true a_failed "a" (bd "mark-success" "" "s1" "") = (400, a_failed, []) /\
  post ok_all ok_all ok_all "/d" true a_failed "a" (bd "mark-success" "rc" "" "") = (400, a_failed, []) /\
  post ok_all ok_all ok_all "/d" true a_failed "a" (bd "mark-success" "rc" "zz" "") = (400, a_failed, []) /\
  post ok_all ok_all ok_all "/d" true a_failed "a" (bd "mark-success" "rn" "s1" "") = (500, a_failed, []) /\
  post ok_all ok_all ok_all "/d" true a_failed "nope" (bd "start" "" "" "") = (400, a_failed, []).
Proof. exact ex_refused. Qed.
