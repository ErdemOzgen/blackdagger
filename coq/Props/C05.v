(* C05 - stop and timeout always bring a run to an end.
   Model: Sched/Model.v (SigFlag / SigNode k = Scheduler.Signal: flag, then one atomic section per node, k = the signal
   was forwarded to the executor; Timeout; WExecRefused = the executor refuses an expired context).
   Proofs: Sched/Step.v, Sched/Proofs.v, Sched/ProofsStop.v, Sched/ProofsTerm.v.  Examples: Sched/Examples2.v.  Tie to the code: tools/props/C05.py.
   What still needs a premise / is not proved:
   - finiteness and "can be driven to Done" are proved for configurations without repeating steps (a repeating step
     runs until a stop; after the stop it is not re-entered: C05_no_new_start / C05_started_at_most_once, proved for
     every configuration - so after a stop every step's command starts at most once more; a BOUND on the length of the
     executions after a stop with repeating steps is not proved: the measure of ProofsTerm.v rests on the invariant of
     Proofs.v, which is stated for configurations without repeating steps);
   - a stop during a retry interval: the worker's unconditional reset (status := not started) overwrites the canceled
     label the Signal pass gave the node; the command is not started again (C05_no_new_start) and the run ends canceled
     with onCancel/onExit - C05_stop_during_retry_wait below -, but the node is persisted "not started" with retry
     count 1 although it was attempted once.  C05 says nothing about that label (C08 does);
   - that a signalled process exits (or is killed by SIGKILL) is the environment's part: in the model WExecEnd is
     always enabled for an executing command; which signal is sent (signalOnStop or the given one) is data of the call,
     checked by the monitor on the real Kill events;
   - the wall-clock bound (MaxCleanUpTime, agent.go:384-414) is runtime behaviour: observed by the check on real
     processes, not proved. *)
From Coq Require Import List Bool PeanoNat.
Import ListNotations.
From BD.Sched Require Import Model Proofs ProofsFinal ProofsTerm ProofsStop Examples Examples2.

(* No new start - for EVERY configuration (repeating steps, retries, with or without done channel): once the stop flag
   is set, a command starts only in a worker that had already passed its own cancel test (phase PStarting) when the
   flag was set; ... *)
Theorem C05_no_new_start : forall (c : cfg) ls s s', canceled s = true -> run c s ls = Some s' ->
  forall i, In (WExecStart i) ls -> ph (nd s i) = PStarting.
Proof. exact no_new_start. Qed.
Print Assumptions C05_no_new_start.

(* ... and at most once: a repeating step finishes its current iteration and is not repeated again, a failing step is
   not retried. *)
Theorem C05_started_at_most_once : forall (c : cfg) a b i s s', canceled s = true ->
  run c s (a ++ WExecStart i :: b) = Some s' -> ~ In (WExecStart i) b.
Proof.
  intros c a b i s s' Hc Hr Hin. rewrite run_app in Hr. destruct (run c s a) as [s0|] eqn:Ha; [|discriminate].
  assert (Hc0 : canceled s0 = true).
  { apply (run_preserves c (fun s => canceled s = true)) with (s := s) (ls := a); auto.
    intros s1 l s2 X Hs. exact (proj1 (step_flags c _ _ _ Hs) X). }
  cbn [run] in Hr. destruct (step c s0 (WExecStart i)) as [s1|] eqn:Hs; [|discriminate].
  (* the worker is executing: it is not past its cancel test a second time *)
  pose proof (no_new_start c b s1 s' (proj1 (step_flags c _ _ _ Hs) Hc0) Hr i Hin) as X.
  apply exec_start_iff in Hs. destruct Hs as (_ & _ & _ & _ & _ & ->). rewrite nd_set_same in X. discriminate.
Qed.
Print Assumptions C05_started_at_most_once.

(* A repeating step is not signalled: the Signal pass skips it. *)
Theorem C05_repeat_not_signalled : forall (c : cfg) s k i q s', sigq s = i :: q -> repeat (steps c i) = true ->
  step c s (SigNode k) = Some s' -> k = false /\ nd s' = nd s.
Proof.
  intros c s k i q s' Hq Hr Hs. cbn [step] in Hs. rewrite Hq, Hr in Hs. destruct k; [discriminate|]. injection Hs as <-. auto.
Qed.
Print Assumptions C05_repeat_not_signalled.

(* The stop signal reaches every running step - for every configuration, in every reachable stopped state: a
   non-repeating step whose worker is past its cancel test and whose node is still running is still in the queue of a
   Signal pass (nobody can take it out but the pass itself) ... *)
Theorem C05_signal_reaches : forall (c : cfg) s, Reach c s ->
  canceled s = true -> forall i, i < nsteps c -> (ph (nd s i) = PStarting \/ ph (nd s i) = PExec) ->
  st (nd s i) = NRunning -> repeat (steps c i) = false -> In i (sigq s).
Proof. exact signal_reaches. Qed.
Print Assumptions C05_signal_reaches.

(* ... and EVERY pass that reaches a non-repeating step while its command executes forwards its signal (Kill) - the
   first one (which also flips the node to canceled) and every later one: re-sends and the SIGKILL escalation after
   MaxCleanUpTime reach a process that ignored the first signal.  (False before fix 767545b - F5a: node.signal only
   acted on status running.) *)
Theorem C05_escalation : forall (c : cfg) s k i q s', Inv c s -> sigq s = i :: q -> ph (nd s i) = PExec ->
  repeat (steps c i) = false -> step c s (SigNode k) = Some s' -> k = true /\ ph (nd s' i) = PExec.
Proof. intros c s k i q s' HI Hq Hp Hrep Hs. destruct (signal_at_exec c s k i q s' HI Hq Hp Hrep Hs) as (A & B & _). auto. Qed.
Print Assumptions C05_escalation.

Theorem C05_signal_forwarded : forall (c : cfg) s k i q s', Inv c s -> sigq s = i :: q -> ph (nd s i) = PExec ->
  st (nd s i) = NRunning -> repeat (steps c i) = false -> step c s (SigNode k) = Some s' ->
  k = true /\ st (nd s' i) = NCancel.
Proof. intros c s k i q s' HI Hq Hp Hst Hrep Hs. destruct (signal_at_exec c s k i q s' HI Hq Hp Hrep Hs) as (A & _ & B). auto. Qed.
Print Assumptions C05_signal_forwarded.

(* The run ends: every execution is finite (explicit bound; configurations without repeating steps), the scheduler is
   never stuck before Done ... *)
Theorem C05_all_executions_finite : forall c : cfg, norepeat c ->
  forall ls s, run c (init c) ls = Some s -> length ls <= bound c.
Proof. exact all_executions_finite. Qed.
Print Assumptions C05_all_executions_finite.

Theorem C05_can_complete : forall c : cfg, norepeat c ->
  forall s, Reach c s -> wf_deps c -> exists ls s', run c s ls = Some s' /\ pc s' = LDone.
Proof. exact can_complete. Qed.
Print Assumptions C05_can_complete.

(* ... as canceled with the cancel and exit handlers: a run reported canceled gets exactly the configured ones among
   [onCancel; onExit] (C04_handlers: started once each, in this order, after the last step; C04_outcome_stable: the
   outcome does not change afterwards).  "Reported canceled" at the choice = stop flag set and not every step
   finished/skipped (C04_canceled_iff); and a stopped run whose steps were cut short is never reported finished: *)
Theorem C05_cancel_handlers : forall (c : cfg) s, overall c s = OCancel ->
  handlers_for c s = filter (hon c) [HCancel; HExit].
Proof. intros c s H. unfold handlers_for. rewrite H. reflexivity. Qed.
Print Assumptions C05_cancel_handlers.

Theorem C05_finished_means_ran : forall c : cfg, norepeat c ->
  forall s, Reach c s -> dry c = false ->
  forall i, st (nd s i) = NSuccess -> exists fs, outs (nd s i) = true :: fs.
Proof. exact finished_means_ran. Qed.
Print Assumptions C05_finished_means_ran.

(* Timeout (reading recorded in DESIGN.md section 6: a timed-out run is labelled failed): after the deadline no step
   command starts; a command cut by the deadline is labelled canceled and the run gets an error; the chosen handlers
   do run (C04_handlers has no timeout premise any more; before fix 246fa0b they were refused - F5d). *)
Theorem C05_timeout_no_start : forall (c : cfg) s, timedout s = true -> forall i, step c s (WExecStart i) = None.
Proof.
  intros c s Ht i. destruct (step c s (WExecStart i)) as [s'|] eqn:Hs; [|reflexivity].
  apply exec_start_iff in Hs. destruct Hs as (_ & _ & _ & X & _). congruence.
Qed.
Print Assumptions C05_timeout_no_start.

Theorem C05_timeout_cuts : forall (c : cfg) s i, norepeat c ->
  ph (nd s i) = PEnded false -> st (nd s i) = NRunning -> timedout s = true -> i < nsteps c ->
  exists s', step c s (WAfter i false) = Some s' /\ st (nd s' i) = NCancel /\
             (ph (nd s' i) = PGone \/ ph (nd s' i) = PPost) /\ lasterr s' = true.
Proof.
  intros c s i Hn Hp Hst Ht Hi. cbn [step]. rewrite Hp. apply Nat.ltb_lt in Hi. rewrite Hi. cbn [negb orb andb].
  eexists. split; [reflexivity|]. unfold after, tail. rewrite Hst, Ht, (Hn i). cbn [andb].
  rewrite nd_set_same. cbn [lasterr set_nd set_err]. nsimpl. destruct (donech c); auto.
Qed.
Print Assumptions C05_timeout_cuts.

(* The deadline is tested BEFORE the retry policy (the order of the arms of the worker's error switch): a step whose
   attempt ends after the timeout is never handed back for a retry - whatever retries it has left - and its retry count
   stays as it is.  For every configuration. *)
Theorem C05_timeout_no_retry : forall (c : cfg) s i early s', timedout s = true ->
  step c s (WAfter i early) = Some s' -> ph (nd s' i) <> PRetryWait /\ rc (nd s' i) = rc (nd s i).
Proof.
  intros c s i early s' Ht Hs. cbn [step] in Hs. destruct (ph (nd s i)); try discriminate.
  destruct (_ && _); [|discriminate]. injection Hs as <-. unfold after, tail. rewrite Ht.
  destruct ok; [|destruct (if early then NRunning else st (nd s i))]; rewrite nd_set_same; nsimpl; (split; [|reflexivity]);
    repeat match goal with |- context [if ?b then _ else _] => destruct b end; discriminate.
Qed.
Print Assumptions C05_timeout_no_retry.

Theorem C05_timeout_handler_starts : forall (c : cfg) s h t0, pc s = LHandlers (h :: t0) false -> dry c = false ->
  hsfail c h = false ->
  exists s', step c s (HStart h) = Some s'.
Proof. intros c s h t0 Hp Hd Hf. cbn [step]. rewrite Hp, Hd, Hf, handler_eqb_refl. eexists. reflexivity. Qed.
Print Assumptions C05_timeout_handler_starts.

(* (1) A stop of two executing steps: both in the Signal queue, both forwarded the signal and
   flipped, both end canceled, outcome canceled, handlers [onCancel; onExit], Done reached. *)
Example C05_nonvacuous :
  (donech two_steps = true /\ norepeat two_steps) /\
  exists s1 s2 s3, run two_steps (init two_steps) stop2_pre = Some s1 /\
    step two_steps s1 HBegin = Some s2 /\ run two_steps s2 stop2_post = Some s3 /\
    pc s3 = LDone /\ dry two_steps = false /\
    overall two_steps s1 = OCancel /\ hstarts stop2_post = [HCancel; HExit] /\
    map (fun i => st (nd s3 i)) [0; 1] = [NCancel; NCancel] /\ pc s1 = LExited.
Proof. exact (conj stop2_ok stop2_witness). Qed.

(* (2) The F5a scenario in the repaired model: the second Signal pass forwards its signal to the node the first pass has
   flipped, because its command still executes. *)
Example C05_escalation_repaired :
  exists s, run (one_step 2 false) (init (one_step 2 false)) f5a_exec = Some s /\
    ph (nd s 0) = PExec /\ st (nd s 0) = NCancel /\ sigq s = [0] /\
    step (one_step 2 false) s (SigNode false) = None /\
    exists s', step (one_step 2 false) s (SigNode true) = Some s' /\ ph (nd s' 0) = PExec.
Proof. apply ex_run. vm_compute. repeat split; try reflexivity. eexists. split; reflexivity. Qed.

(* (3) The F5d scenario in the repaired model: after the DAG timeout onFailure and onExit are chosen and run. *)
Example C05_timeout_handlers_repaired :
  exists s1 s2 s3, run (one_step 0 true) (init (one_step 0 true)) f5d_pre = Some s1 /\
    step (one_step 0 true) s1 HBegin = Some s2 /\ run (one_step 0 true) s2 f5d_post = Some s3 /\
    pc s3 = LDone /\ timedout s3 = true /\ handlers_for (one_step 0 true) s1 = [HFailure; HExit] /\
    hstarts f5d_post = [HFailure; HExit] /\ st (nd s3 0) = NCancel /\ overall (one_step 0 true) s3 = OError /\
    hatt (hst s3 HFailure) = 1 /\ hs (hst s3 HFailure) = NSuccess /\ hatt (hst s3 HExit) = 1.
Proof. apply ex_run3. vm_compute. repeat split; reflexivity. Qed.

(* (4) A stop during a retry interval (the reset of the retrying worker undoes the canceled label, not the stop): the
   command was started once and is not started again, the run ends canceled, onCancel then onExit run; the node ends
   "not started" with retry count 1, one attempt. *)
Example C05_stop_during_retry_wait :
  exists s, run retry_one (init retry_one) stop_in_retry_wait = Some s /\ pc s = LDone /\ canceled s = true /\
    st (nd s 0) = NNone /\ rc (nd s 0) = 1 /\ att (nd s 0) = 1 /\ ph (nd s 0) = PIdle /\
    overall retry_one s = OCancel /\ hstarts stop_in_retry_wait = [HCancel; HExit] /\
    length (filter (fun l => match l with WExecStart _ => true | _ => false end) stop_in_retry_wait) = 1.
Proof. apply ex_run. vm_compute. repeat split; reflexivity. Qed.
