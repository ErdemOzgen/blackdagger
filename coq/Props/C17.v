(* C17 - no API request gets through without valid credentials when auth is on.
   This file holds nothing but the property theorems (closed by `exact`), Print Assumptions and Examples (closed by
   `exact` too, except the last, C17_ex_wrong_premises, which is proved here by evaluation).
   Model: Auth/Model.v (internal/frontend/middleware/{global,basic_auth,token_auth}.go, net/http parseBasicAuth and
   StripPrefix, encoding/base64 StdEncoding).  Byte strings are `list ascii`.  Tie to the code: tools/props/C17.py
   (the real chain built by middleware.Setup + SetupGlobalMiddleware around a sentinel, against `observe`). *)
From Coq Require Import List String Ascii.
Import ListNotations.
From BD.Auth Require Import Model Proofs.

(* base64: decoding an encoding gives the bytes back - for every byte string. *)
Theorem C17_b64_roundtrip : forall l : la, b64_dec (b64_enc l) = Some l.
Proof. exact b64_roundtrip. Qed.
Print Assumptions C17_b64_roundtrip.

(* Soundness: a request handed to the API is on an API path and either nothing is configured, or it carries the
   configured user and password (as net/http parses a Basic header), or the configured non-empty token is the second
   space-separated word of its Authorization header. *)
Theorem C17_sound : forall (c : cfg) (r : req), chain c r = Api ->
  route c r = Api /\
  ( (basic c = None /\ token c = None)
    \/ (exists u p, basic c = Some (u, p) /\ parse_basic (hdr r) = Some (u, p))
    \/ (exists t, token c = Some t /\ t <> [] /\ nth_error (split_sp (hdr r)) 1 = Some t) ).
Proof. exact sound. Qed.
Print Assumptions C17_sound.

(* ... and what net/http accepts as a Basic header: a case-insensitive "Basic " followed by a base64 text of user:password *)
Theorem C17_basic_header_shape : forall (h u p : la), parse_basic h = Some (u, p) ->
  exists pre payload, h = pre ++ payload /\ equal_fold pre (L "Basic ") = true /\ b64_dec payload = Some (u ++ colon :: p).
Proof. exact parse_basic_spec. Qed.
Print Assumptions C17_basic_header_shape.

(* Completeness for the standard forms.  Premises: the user name has no colon (RFC 7617), the token is non-empty and
   has no space (RFC 6750) - such secrets cannot be presented at all and are covered by soundness only. *)
Theorem C17_complete_basic : forall (c : cfg) (r : req) (u p : la), basic c = Some (u, p) -> ~ In colon u ->
  route c r = Api -> hdr r = std_basic u p -> chain c r = Api.
Proof. exact complete_basic. Qed.
Print Assumptions C17_complete_basic.

Theorem C17_complete_token : forall (c : cfg) (r : req) (t : la), token c = Some t -> t <> [] -> ~ In sp t ->
  route c r = Api -> hdr r = std_bearer t -> chain c r = Api.
Proof. exact complete_token. Qed.
Print Assumptions C17_complete_token.

(* Nothing configured: every API-path request passes. *)
Theorem C17_open : forall (c : cfg) (r : req), basic c = None -> token c = None -> route c r = Api -> chain c r = Api.
Proof. exact open. Qed.
Print Assumptions C17_open.

(* Otherwise: a request carrying neither secret is answered 401 and the API handler does not run. *)
Theorem C17_deny : forall (c : cfg) (r : req), route c r = Api -> no_auth c = false ->
  carries_basic c (hdr r) = false -> carries_token c (hdr r) = false ->
  chain c r = Unauth /\ served c r = false.
Proof. exact deny. Qed.
Print Assumptions C17_deny.

(* The decision is exactly this (both directions, every configuration and header). *)
Theorem C17_exact : forall (c : cfg) (h : la), auth c h =
  match basic c with
  | None => match token c with None => Api | Some _ => if carries_token c h then Api else Unauth end
  | Some _ => if skip_basic c h then (if carries_token c h then Api else Unauth)
              else if carries_basic c h then Api else Unauth
  end.
Proof. exact auth_cases. Qed.
Print Assumptions C17_exact.

(* Paths outside /api never reach the API handler (nor a 401), whatever the header. *)
Theorem C17_non_api : forall (c : cfg) (r : req), route c r <> Api ->
  chain c r <> Api /\ chain c r <> Unauth /\ served c r = false.
Proof. exact non_api. Qed.
Print Assumptions C17_non_api.

(* Wrong secrets in the standard forms are refused, for EVERY other user/password pair and every other token, whatever
   else is configured (a configured token does not let a wrong Basic pair through, nor the reverse), and the API handler
   does not run. *)
Theorem C17_wrong_basic_denied : forall (c : cfg) (r : req) (u p u' p' : la), basic c = Some (u, p) -> ~ In colon u' ->
  (u', p') <> (u, p) -> route c r = Api -> hdr r = std_basic u' p' -> chain c r = Unauth /\ served c r = false.
Proof. exact wrong_basic_denied. Qed.
Print Assumptions C17_wrong_basic_denied.

Theorem C17_wrong_token_denied : forall (c : cfg) (r : req) (t t' : la), token c = Some t -> ~ In sp t' -> t' <> t ->
  route c r = Api -> hdr r = std_bearer t' -> chain c r = Unauth /\ served c r = false.
Proof. exact wrong_token_denied. Qed.
Print Assumptions C17_wrong_token_denied.

(* Non-vacuity: the premises above are met by concrete states and the outcomes differ. *)
Example C17_ex_encoding : b64_enc (L "admin:secret") = L "YWRtaW46c2VjcmV0" /\ b64_enc (L "a") = L "YQ==" /\ b64_enc (L "ab") = L "YWI=".
Proof. exact ex_enc. Qed.
Example C17_ex_std_basic : std_basic (L "admin") (L "secret") = L "Basic YWRtaW46c2VjcmV0" /\ ~ In colon (L "admin").
Proof. exact ex_std_basic. Qed.
Example C17_ex_std_bearer : std_bearer (L "tok123") = L "Bearer tok123" /\ L "tok123" <> [] /\ ~ In sp (L "tok123").
Proof. exact ex_std_bearer. Qed.
Example C17_ex_chain :
  chain cfg_both (rq "GET" "/bd/api/v1/dags" "Basic YWRtaW46c2VjcmV0") = Api /\
  chain cfg_both (rq "GET" "/bd/api/v1/dags" "Bearer tok123") = Api /\
  chain cfg_both (rq "GET" "/bd/api/v1/dags" "Bearer tok12") = Unauth /\
  chain cfg_both (rq "GET" "/bd/api/v1/dags" "Basic YWRtaW46c2VjcmV") = Unauth /\
  chain cfg_both (rq "GET" "/bd/api/v1/dags" "") = Unauth /\
  chain cfg_both (rq "GET" "/bd/dags/x" "") = Static /\
  chain cfg_both (rq "GET" "/" "") = Redirect /\
  chain cfg_both (rq "GET" "/api/v1/dags" "Bearer tok123") = NotFound /\
  served cfg_both (rq "OPTIONS" "/bd/api/v1/dags" "Bearer tok123") = false /\
  served cfg_both (rq "POST" "/bd/api/v1/dags" "Bearer tok123") = true.
Proof. exact ex_chain. Qed.
Example C17_ex_deny_premises :
  route cfg_both (rq "GET" "/bd/api/v1/dags" "Token tok123") = Api /\ no_auth cfg_both = false /\
  carries_basic cfg_both (L "Bearer dG9rMTIz") = false /\ carries_token cfg_both (L "Bearer dG9rMTIz") = false.
Proof. exact ex_deny_premises. Qed.
(* a configured password with colons: only the whole password passes (the pair is cut at the first colon) *)
Example C17_ex_colon_password :
  chain cfg_colon {| method := L "GET"; path := L "/api/v1/dags"; rawpath := []; hdr := std_basic (L "admin") (L "a:b:c") |} = Api /\
  chain cfg_colon {| method := L "GET"; path := L "/api/v1/dags"; rawpath := []; hdr := std_basic (L "admin") (L "a:b:c:junk") |} = Unauth /\
  chain cfg_colon {| method := L "GET"; path := L "/api/v1/dags"; rawpath := []; hdr := std_basic (L "admin") (L "a") |} = Unauth /\
  parse_basic (std_basic (L "admin") (L "a:b:c")) = Some (L "admin", L "a:b:c").
Proof. exact ex_colon_password. Qed.
Example C17_ex_wrong_premises :
  basic cfg_both = Some (L "admin", L "secret") /\ ~ In colon (L "admin") /\ (L "admin", L "secreT") <> (L "admin", L "secret") /\
  token cfg_both = Some (L "tok123") /\ ~ In sp (L "tok124") /\ L "tok124" <> L "tok123" /\
  route cfg_both {| method := L "GET"; path := L "/bd/api/v1/dags"; rawpath := []; hdr := std_basic (L "admin") (L "secreT") |} = Api.
Proof.
  vm_compute. intuition (reflexivity || discriminate).
Qed.
