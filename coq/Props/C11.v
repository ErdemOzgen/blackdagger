(* C11 - parameters and step outputs reach the steps that use them, unchanged.
   Model: Params/Model.v - the parameter tokenizer (leftmost-first semantics of the regexp of parseParamValue in
   parser.go), the stripping of the two delimiting quotes and unescape (`post`), stringify, model.Params (`record`:
   quoteParam, then join), the assignment list of parseParams, doc_render of the documented forms, strings.TrimSpace,
   the run-wide output map.  (The capture pipe itself belongs to C12 and is not part of this model.)
   Tie to the code: tools/props/C11.py (dag.LoadYAML / dag.Load / model.Status / real scheduler and children).

   The model describes the REPAIRED code: ff6cf28 (a name cannot contain a quote - F11c), 0f1faec (exactly the
   delimiting quotes are stripped - F11b) and 92cc1cc (model.Params quotes what needs quoting - F11a).  What is still
   false of it, and stays a known finding:
       forall its,  parse (doc_render its) = values its                      - a quoted value ending in a backslash
       forall s,    parse (record (parse s)) = parse s        - a value that must be quoted and ends in a backslash;
                                                                a positional value that looks like NAME=value
   the _partial theorems carry exactly these exclusions as decidable premises V0 / V1. *)
From Coq Require Import List String Ascii.
Import ListNotations.
From BD.Params Require Import Model Proofs.

(* Every documented item - word, "quoted value", NAME=word, NAME="quoted value" - of a list of any length yields
   exactly its name and value, for values in V0: quoted text is ARBITRARY (spaces, =, quotes anywhere - also first and
   last -, back-ticks, backslashes, any byte, empty) except that it does not end with a backslash; a word has no white
   space / quote, does not start with a back-tick (and, unnamed, has no = after its first character); a name has no
   white space, = or quote. *)
Theorem C11_parse_doc_partial : forall its : list item, V0 its = true -> parse (doc_render its) = values its.
Proof. exact parse_doc. Qed.
Print Assumptions C11_parse_doc_partial.

(* ... and each item is exported: $i carries the stringified item, $NAME exactly the value *)
Theorem C11_env_doc_partial : forall its i it, V0 its = true -> nth_error its i = Some it ->
  In (dec (S i), stringify (item_pair it)) (assigns (parse (doc_render its))) /\
  (fst (item_pair it) <> [] -> In (item_pair it) (assigns (parse (doc_render its)))).
Proof.
  intros its i it HV Hn. rewrite (parse_doc its HV). apply (assigns_from_nth _ 1 i), map_nth_error, Hn.
Qed.
Print Assumptions C11_env_doc_partial.

(* What retry and restart rely on: re-parsing the recorded string gives back the parameters.  V1 (decidable) excludes
   exactly: a value that has to be written quoted (empty, white space, quote, back-tick; positional: an =) AND ends
   with a backslash; a positional value with an = after a non-empty prefix free of white space and quotes. *)
Theorem C11_roundtrip_partial : forall s : la, V1 (parse s) = true -> parse (record (parse s)) = parse s.
Proof. intros s H. now apply record_parse. Qed.
Print Assumptions C11_roundtrip_partial.

Theorem C11_record_parse_partial : forall ps : list pair, V1 ps = true -> parse (record ps) = ps.
Proof. exact record_parse. Qed.
Print Assumptions C11_record_parse_partial.

(* Without the second exclusion still: the stringified parameters - DAG.Params, and so $1..$n - come back unchanged
   (a positional NAME=value only turns into the named parameter of the same text) *)
Theorem C11_record_parse_strings_partial : forall ps : list pair, forallb bs_ok (map stringify ps) = true ->
  map stringify (parse (record ps)) = map stringify ps.
Proof.
  intros ps H. unfold record. rewrite (record_parse_gen _ H). rewrite map_map.
  rewrite <- (map_id (map stringify ps)) at 2. rewrite !map_map. apply map_ext. intros p. apply stringify_qsplit.
Qed.
Print Assumptions C11_record_parse_strings_partial.

(* every clause of V1 is needed *)
Theorem C11_V1_clauses_needed :
  (exists v, bs_ok v = true /\ is_nil (fst (qsplit v)) = false /\ parse (record [([], v)]) <> [([], v)]) /\
  (exists v w, bs_ok v = false /\ is_nil (fst (qsplit v)) = true /\ v1_pair ([], w) = true /\
               parse (record [([], v); ([], w)]) <> [([], v); ([], w)]) /\
  (exists n v, name_ok n = false /\ bs_ok (stringify (n, v)) = true /\ parse (record [(n, v)]) <> [(n, v)]).
Proof.
  repeat split.
  - exists (L "a=b"). now vm_compute.
  - exists (L "a b\"), (L "c d"). now vm_compute.
  - exists (L "a b"), (L "c"). now vm_compute.
Qed.
Print Assumptions C11_V1_clauses_needed.

(* what remains of F11a: a documented positional value that looks like NAME=value comes back as the named parameter *)
Theorem C11_roundtrip_refuted_positional_eq : exists its, V0 its = true /\
  parse (record (parse (doc_render its))) <> parse (doc_render its).
Proof. exists [IQuoted (L "a=b")]. split; [reflexivity | vm_compute; discriminate]. Qed.
Print Assumptions C11_roundtrip_refuted_positional_eq.

Theorem C11_roundtrip_refuted_backslash : exists ps : list pair,
  map stringify (parse (record ps)) <> map stringify ps.
Proof. exists [([], L "a b\"); ([], L "c d")]. vm_compute. discriminate. Qed.
Print Assumptions C11_roundtrip_refuted_backslash.

(* repaired: before fix 92cc1cc (the record was the plain join of the values) these came back as a, b, c and X=a, b *)
Example C11_roundtrip_fixed :
  parse (record (parse (doc_render [IQuoted (L "a b"); IWord (L "c")]))) = parse (doc_render [IQuoted (L "a b"); IWord (L "c")]) /\
  parse (record (parse (doc_render [INamedQ (L "X") (L "a b")]))) = parse (doc_render [INamedQ (L "X") (L "a b")]) /\
  record (parse (doc_render [IQuoted (L "a b"); IWord (L "c"); IQuoted []])) = L """a b"" c """"".
Proof. exact roundtrip_fixed. Qed.

(* what remains of F11b: a backslash at the end of a quoted value swallows the closing quote *)
Theorem C11_parse_doc_refuted_backslash : exists v w, parse (doc_render [IQuoted v; IQuoted w]) <> values [IQuoted v; IQuoted w].
Proof. exists [ascii_of_nat 97; bs], [ascii_of_nat 98]. vm_compute. discriminate. Qed.
Print Assumptions C11_parse_doc_refuted_backslash.

(* repaired: before fix 0f1faec a value ending in an escaped quote was mangled by strings.Trim (F11b) ... *)
Example C11_parse_doc_fixed_edge_quote :
  let v := list_ascii_of_string "say " ++ dq :: list_ascii_of_string "hi" ++ [dq] in
  parse (doc_render [IQuoted v]) = values [IQuoted v].
Proof. exact parse_doc_fixed_edge_quote. Qed.
(* ... and before fix ff6cf28 an unnamed quoted value with an = before any space was read as NAME=value (F11c) *)
Example C11_parse_doc_fixed_eq : parse (doc_render [IQuoted (L "a=b")]) = values [IQuoted (L "a=b")].
Proof. exact parse_doc_fixed_eq. Qed.

(* V0 is as large as a class that judges items one by one can be: every clause has an item violating just that clause
   and a documented context in which the parse goes wrong *)
Theorem C11_V0_clauses_needed :
  (exists v w, qval_ok v = false /\ v0_item (IQuoted w) = true /\
               parse (doc_render [IQuoted v; IQuoted w]) <> values [IQuoted v; IQuoted w]) /\
  (exists v, word_ok v = false /\ parse (doc_render [IWord v]) <> values [IWord v]) /\
  (exists v, word_ok v = true /\ no_inner_eq v = false /\ parse (doc_render [IWord v]) <> values [IWord v]) /\
  (exists v w, word_ok v = false /\ v0_item (IWord w) = true /\ parse (doc_render [IWord v; IWord w]) <> values [IWord v; IWord w]) /\
  (exists n v, name_ok n = false /\ word_ok v = true /\ parse (doc_render [INamed n v]) <> values [INamed n v]) /\
  (exists n v, name_ok n = false /\ word_ok v = true /\ parse (doc_render [INamed n v]) <> values [INamed n v]).
Proof.
  repeat split.
  - exists (L "a\"), (L "b"). now vm_compute.
  - exists (L "a" ++ dq :: L "b"). now vm_compute.
  - exists (L "a=b"). now vm_compute.
  - exists (L "`a"), (L "b`"). now vm_compute.
  - exists (L "a=b"), (L "c"). now vm_compute.
  - exists (L "a" ++ dq :: L "b"), (L "c"). now vm_compute.
Qed.
Print Assumptions C11_V0_clauses_needed.

(* Outputs: a command started after the end of a producer's attempt (a step at any distance, a handler) sees
   NAME = TrimSpace(captured bytes), provided no other attempt stored the same name in between ... *)
Theorem C11_output : forall m0 pre n c mid j post,
  no_writer n mid ->
  exists before seen after,
    oflow m0 (pre ++ OEnd n c :: mid ++ OStart j :: post) = before ++ (j, seen) :: after /\
    List.length before = List.length (oflow m0 (pre ++ OEnd n c :: mid)) /\
    value_of n seen = Some (trim_space c).
Proof.
  intros m0 pre n c mid j post H.
  exists (oflow m0 (pre ++ OEnd n c :: mid)), (ofinal m0 (pre ++ OEnd n c :: mid)),
         (oflow (ofinal m0 (pre ++ OEnd n c :: mid)) post).
  split; [|split; [reflexivity|]].
  - replace (pre ++ OEnd n c :: mid ++ OStart j :: post) with ((pre ++ OEnd n c :: mid) ++ OStart j :: post)
      by (rewrite <- app_assoc; reflexivity).
    now rewrite oflow_app.
  - now apply output_final.
Qed.
Print Assumptions C11_output.

(* ... and so does every step of a later retry of the run (the recorded map is re-installed unchanged) *)
Theorem C11_output_retry : forall pre n c mid, no_writer n mid ->
  value_of n (reinstall (ofinal [] (pre ++ OEnd n c :: mid))) = Some (trim_space c).
Proof.
  intros. rewrite reinstall_id; [now apply output_final | apply uniq_ofinal; exact I].
Qed.
Print Assumptions C11_output_retry.

(* Non-vacuity: V0 and V1 are inhabited by the kinds of value the property speaks of *)
Example C11_V0_nonvacuous :
  V0 [IWord (L "a"); IQuoted (L "a b = c"); INamed (L "X") (L "1=2"); INamedQ (L "Y") (L " p=q  r ");
      IQuoted (dq :: L "hi" ++ dq :: L " there"); IQuoted []; IWord (L "=x"); IQuoted (L "a=b");
      INamedQ (L "Z") (L "`date` \x"); IQuoted (L "say " ++ dq :: L "hi" ++ [dq]); IQuoted [dq]; IQuoted (L "=")] = true.
Proof. exact V0_example. Qed.
Example C11_V1_nonvacuous :
  V1 [([], L "a"); (L "X", L "1=2"); ([], L "=x"); ([], L "a\b`c"); ([], L "a b"); (L "Y", L " p  q "); ([], []);
      (L "Z", dq :: L "hi" ++ [dq]); ([], L "x y=z"); ([], L "tail\")] = true.
Proof. exact V1_example. Qed.
