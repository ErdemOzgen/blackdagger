(* C08 - reported status is truthful: live while running, final afterwards, never stuck.
   This file holds only property theorems (closed by `exact`; C08_live_when_bound and C08_unlink_needed, a rewriting and a
   witness, are proved in place), Print Assumptions and Examples.
   Model: Status/Model.v (Scheduler.Status clause by clause; the agent's persisted snapshot sequence as a transition
   system over an abstract step scheduler - snapshot threads under statusLock with separate lock / read / copy / append labels,
   Close's compaction;
   client.GetLatestStatus; the daemon's Start guard; the socket as absent / stale / live).
   The model follows /repo after the repairs b9e9fa2 (F8a), 3aa388e (F7a), 7f2c2d0 (F8b/F8c), ac08004 (F5c), eb925d1 (F7b: compaction
   by tmp + rename, readers drop an original next to its twin) and a924e5c (F16a, with fc081bb: flock on <socket address>.lock during start-up).
   Every theorem quantifies over all table sizes n, socket pre-states s0 and label sequences ls; `exec ... ls = Some st`
   for an arbitrary ls means: st is the state at an arbitrary kill point of an arbitrary interleaving.
   Tie to the code: tools/props/C08.py (in-process agent runs: persisted lines and live answers against Status/Check.v;
   the real binary killed at system-call boundaries and time offsets). *)
From Coq Require Import List Bool.
Import ListNotations.
From BD.Status Require Import Model Proofs Check ProofsCheck ProofsChain.

(* While the run is in progress (Schedule started, not returned) the socket is bound and the reported status is `running`
   with the node table of the current state. *)
Theorem C08_live : forall n s0 ls st,
  exec (init n s0) ls = Some st -> in_progress st = true ->
  alive st = true /\ report n st = (mkSnap ORunning (tbl (sc st)), false).
Proof. exact live_in_progress. Qed.
Print Assumptions C08_live.

(* More generally, whenever the socket answers. *)
Theorem C08_live_when_bound : forall n st,
  alive st = true -> report n st = (mkSnap ORunning (tbl (sc st)), false).
Proof. intros n st H. unfold report, reported. rewrite H. reflexivity. Qed.
Print Assumptions C08_live_when_bound.

Example C08_live_nonvacuous : exists st,
  exec (init 2 SockStale) [LLockDag; LOpen; LWriteS0; LBind; LSched AStart; LSched (ALaunch 0); LSched (AEnd 0 true)] = Some st /\
  in_progress st = true /\ map nst (s_tbl (fst (report 2 st))) = [NSuccess; NNone] /\ s_ov (fst (report 2 st)) = ORunning.
Proof. exact live_nonvacuous. Qed.

(* C08_final - the full statement (since fix 7f2c2d0; before it false when a snapshot computed earlier was appended after the
   final status: findings F8b/F8c, fixed).  After a complete run the persisted status is the final state of the run and that
   is what is reported.  No premise. *)
Theorem C08_final : forall n s0 ls st,
  exec (init n s0) ls = Some st ->
  mp st = MClosed ->
  persisted st = PSnap (snap_of (sc st)) /\ report n st = (correct (snap_of (sc st)), false).
Proof. exact final. Qed.
Print Assumptions C08_final.

(* before fix 7f2c2d0 the prefix below continued with the main thread's final write and then the stale `running` snapshot of the
   first-status goroutine (the _refuted witness of F8b).  Now that goroutine holds statusLock: the main thread must wait ... *)
Example C08_final_former_witness_blocked :
  (exists st, exec (init 2 SockAbsent) f8b_prefix = Some st /\ locked st = true) /\
  exec (init 2 SockAbsent) (f8b_prefix ++ [LFinalLock]) = None /\
  exec (init 2 SockAbsent) (f8b_prefix ++ [LCLock]) = None.
Proof. exact f8b_main_must_wait. Qed.

(* ... and the run ends with its final state persisted and reported (the hypotheses of C08_final are satisfiable) *)
Example C08_final_former_witness : exists st,
  exec (init 2 SockAbsent)
    (f8b_prefix ++ [LFsAppend; LCLock; LCOv; LCTbl; LCAppend; LFinalLock; LFinalCompute; LFinalAppend; LFinish; LUnbind;
                    LCompactRead; LCompactCreate; LCompactWrite; LCompactRename; LCompactUnlink; LCloseWriter]) = Some st /\
  mp st = MClosed /\ persisted st = PSnap (snap_of (sc st)) /\ s_ov (fst (report 2 st)) = OSuccess /\
  map (fun x => s_ov x) (file st) = [ONone; ORunning; ORunning; OSuccess; OSuccess].
Proof. exact f8b_trace_now_final. Qed.

(* a snapshot goroutine that comes after the final status appends nothing *)
Example C08_late_snapshot_not_appended : exists st st',
  exec (init 1 SockAbsent)
    [LLockDag; LOpen; LWriteS0; LBind; LSched AStart; LSched (ALaunch 0); LSched (AEnd 0 true); LSched ADoneSend; LNotify; LSched AWait;
     LSched AReturn; LFinalLock; LFinalCompute; LFinalAppend] = Some st /\
  exec st [LCLock; LCOv; LCTbl; LCAppend; LFsWake; LFsOv; LFsTbl; LFsAppend] = Some st' /\ file st' = file st /\ length (file st) = 2.
Proof. exact late_snapshot_not_appended. Qed.

(* C08_crash - the full statement (since fix b9e9fa2; before it the second half was false: finding F8a, fixed).
   After a kill at ANY point (= for every prefix of every execution) the reported status is not `running`, and it is
   `finished` only if every step is finished or skipped.  No premise. *)
Theorem C08_crash : forall n s0 ls st,
  exec (init n s0) ls = Some st ->
  s_ov (fst (report n (after_kill st))) <> ORunning /\
  (s_ov (fst (report n (after_kill st))) = OSuccess -> all_succeed (tbl (sc st)) = true).
Proof. exact crash. Qed.
Print Assumptions C08_crash.

Example C08_crash_nonvacuous : exists ls st,
  exec (init 2 SockAbsent) ls = Some st /\
  s_ov (fst (report 2 (after_kill st))) = OSuccess /\ all_succeed (tbl (sc st)) = true.
Proof. exact crash_nonvacuous. Qed.

(* before fix b9e9fa2 this execution was the _refuted witness of F8a (reported `finished`, second step not started);
   now the snapshot taken between the two steps says `running`, which a dead run shows as `failed` *)
Example C08_crash_former_witness : exists st,
  exec (init 2 SockAbsent) f8a_trace = Some st /\ s_ov (fst (report 2 (after_kill st))) = OError /\
  map nst (s_tbl (fst (report 2 (after_kill st)))) = [NSuccess; NNone].
Proof. exact f8a_trace_now_failed. Qed.

(* C08_daemon - the full statement (since fix 3aa388e; before it false for a kill between the creation of the history file and
   its first line: finding F7a, fixed).  After a kill at ANY point the daemon's Start guard neither takes the DAG for running
   nor fails on the history: it reaches its minute guard. *)
Theorem C08_daemon : forall n s0 ls st,
  exec (init n s0) ls = Some st -> job_guard (report n (after_kill st)) = GMinuteGuard.
Proof. exact daemon. Qed.
Print Assumptions C08_daemon.

(* before fix 3aa388e: GRefusedErr (EOF) *)
Example C08_daemon_former_witness : exists st,
  exec (init 2 SockAbsent) [LLockDag; LOpen] = Some st /\ mp st = MOpened /\ job_guard (report 2 (after_kill st)) = GMinuteGuard.
Proof. exact daemon_after_open. Qed.

(* kills inside Close's compaction (tmp created, tmp written, twin published next to the original, original unlinked): always
   the final state is reported, never an error; a stray tmp is invisible to the reader *)
Example C08_kill_inside_compaction :
  reports_final_after_kill [LCompactRead] /\
  reports_final_after_kill [LCompactRead; LCompactCreate] /\
  reports_final_after_kill [LCompactRead; LCompactCreate; LCompactWrite] /\
  reports_final_after_kill [LCompactRead; LCompactCreate; LCompactWrite; LCompactRename] /\
  reports_final_after_kill [LCompactRead; LCompactCreate; LCompactWrite; LCompactRename; LCompactUnlink].
Proof. exact kill_inside_compaction. Qed.

(* After a kill anywhere the flock on the start lock file is free, a new agent's probe says "not running" and its bind (after the unlink)
   succeeds; the unlink is what makes it so; the flock is held during start-up only. *)
Theorem C08_restartable : forall n s0 ls st,
  exec (init n s0) ls = Some st ->
  dlock (after_kill st) = false /\
  probe_running (sock (after_kill st)) = false /\ bind_ok true (sock (after_kill st)) = true.
Proof. exact restartable. Qed.
Print Assumptions C08_restartable.

Theorem C08_flock_only_during_startup : forall n s0 ls st,
  exec (init n s0) ls = Some st -> dlock st = true -> mrank (mp st) <= 2.
Proof. exact flock_only_during_startup. Qed.
Print Assumptions C08_flock_only_during_startup.

Example C08_kill_holding_flock : exists st,
  exec (init 2 SockStale) [LLockDag; LOpen; LWriteS0] = Some st /\ dlock st = true /\ dlock (after_kill st) = false.
Proof. exact kill_holding_flock. Qed.

Theorem C08_unlink_needed : exists ls st,
  exec (init 2 SockAbsent) ls = Some st /\ bind_ok false (sock (after_kill st)) = false.
Proof. exists [LLockDag; LOpen; LWriteS0; LBind]. eexists. split; vm_compute; reflexivity. Qed.
Print Assumptions C08_unlink_needed.

(* The acceptance conditions of the correspondence check are necessary for model executions: every snapshot that exists
   anywhere reaches, node by node, the current state. *)
Theorem C08_snapshots_reach_current : forall n s0 ls st,
  exec (init n s0) ls = Some st ->
  forall x, In x (snaps st) -> tbl_reachb (s_tbl x) (tbl (sc st)) = true.
Proof. exact snapshots_reach_current. Qed.
Print Assumptions C08_snapshots_reach_current.

(* ... and carries Scheduler.Status of an earlier-or-equal scheduler state (Agent.Status reads the overall status before it
   copies the node table). *)
Theorem C08_snapshot_overall : forall n s0 ls st,
  exec (init n s0) ls = Some st ->
  forall x, In x (snaps st) -> exists s1, s_ov x = ov_of s1 /\ tbl_reachb (tbl s1) (s_tbl x) = true.
Proof. exact snapshot_overall. Qed.
Print Assumptions C08_snapshot_overall.

(* Once the final status has been written it is, and stays, the last line of the history file. *)
Theorem C08_final_line_is_last : forall n s0 ls st,
  exec (init n s0) ls = Some st -> 5 <= mrank (mp st) <= 11 -> last_line (file st) = Some (snap_of (sc st)).
Proof. exact final_line_is_last. Qed.
Print Assumptions C08_final_line_is_last.

(* Since 7f2c2d0 at most one thread is inside writeStatus (statusLock), and therefore the lines of the history file, in file
   order, are ONE chain of scheduler states - whoever wrote them. *)
Theorem C08_status_lock_exclusive : forall n s0 ls st,
  exec (init n s0) ls = Some st ->
  crit_fs st && crit_cp st = false /\ crit_fs st && crit_mp st = false /\ crit_cp st && crit_mp st = false.
Proof. exact (fun n s0 ls st He => proj1 (chain_inv n s0 ls st He)). Qed.
Print Assumptions C08_status_lock_exclusive.

Theorem C08_file_is_a_chain : forall n s0 ls st,
  exec (init n s0) ls = Some st -> chainb (map s_tbl (file st)) = true.
Proof. exact file_is_a_chain. Qed.
Print Assumptions C08_file_is_a_chain.
