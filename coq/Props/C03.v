(* C03 - each runnable step runs exactly once; retries are bounded; dry-run runs nothing.
   Model: Sched/Model.v, Agent/Run.v.  Proofs: Sched/Step.v, Sched/Proofs.v, Sched/ProofsFinal.v, Agent/RunProofs.v.
   Tie to the code: tools/props/C03.py.
   An ATTEMPT is a Run of the step's command or a failed creation of that command (label WCreateFail: the attempt ends in
   error without a command having been started; att and outs count it as a failed attempt).
   Premise: norepeat c (no repeatPolicy step: a repeating step has no last attempt until a stop request - stopped runs
   are C04/C05 - and with continueOn.failure it is labelled failed while it keeps executing, see
   C15_repeating_step_refuted).  Since fix f9e55a3 no premise about the done channel is needed.
   Outside the model (documented corner): a step with BOTH retryPolicy and repeatPolicy + continueOn.failure is
   re-entered by its own worker and relaunched by the loop (the model has one worker slot per node); in a stopped
   run retryCount can exceed the extra attempts by one (stop during the retry wait) - C03_attempt_bounds covers it. *)
From Coq Require Import List Bool Lia.
Import ListNotations.
From BD.Agent Require Import Run RunProofs.
From BD.Sched Require Import Model Proofs ProofsFinal Examples.

(* In every reachable state (stopped or not): a step's executions never exceed retryCount + 1, and retryCount never
   exceeds the retry limit - so never more than limit + 1 executions. *)
Theorem C03_attempt_bounds : forall c : cfg, norepeat c ->
  forall s i, Reach c s -> att (nd s i) <= S (rc (nd s i)) /\ rc (nd s i) <= rlimit (steps c i).
Proof. exact C03_bounds. Qed.
Print Assumptions C03_attempt_bounds.

(* A node has one worker slot: two executions of one step are never open at once (an execution is open while the
   node is in phase PExec; WExecStart needs phase PStarting). *)
Theorem C03_no_overlap : forall (c : cfg) s i s', step c s (WExecStart i) = Some s' ->
  ph (nd s i) = PStarting /\ ph (nd s' i) = PExec.
Proof.
  intros c s i s' Hs. apply exec_start_iff in Hs. destruct Hs as (E & _ & _ & _ & _ & ->).
  split; [exact E|]. now rewrite nd_set_same.
Qed.
Print Assumptions C03_no_overlap.

(* At the end of a run that was neither stopped nor timed out (not a dry run): a runnable step (no blocking
   dependency, precondition met, set-up possible) was executed retryCount + 1 >= 1 times: every attempt but the last
   failed, and the last one failed only if limit + 1 attempts were made - "until the first success or limit extra
   attempts, never more"; a step that is not runnable was never executed. *)
Theorem C03_exact : forall c : cfg, norepeat c ->
  forall s, Reach c s -> quiet s -> pc s = LDone -> dry c = false -> forall i, i < nsteps c ->
  (runnable c s i = true ->
     exists last fs, outs (nd s i) = last :: fs /\ allf fs /\
       att (nd s i) = length (outs (nd s i)) /\ att (nd s i) = S (rc (nd s i)) /\
       att (nd s i) <= S (rlimit (steps c i)) /\
       (last = false -> att (nd s i) = S (rlimit (steps c i)))) /\
  (runnable c s i = false -> att (nd s i) = 0).
Proof. exact exact_attempts. Qed.
Print Assumptions C03_exact.

(* The first sentence read literally: without a retryPolicy (limit 0) a runnable step is executed exactly once (and its
   retry count is 0), a step that is not runnable never.  (Met by step e of the mixed run below: limit 0, runnable, 1 attempt.) *)
Theorem C03_exactly_once : forall c : cfg, norepeat c ->
  forall s, Reach c s -> quiet s -> pc s = LDone -> dry c = false -> forall i, i < nsteps c ->
  rlimit (steps c i) = 0 ->
  (runnable c s i = true -> att (nd s i) = 1 /\ rc (nd s i) = 0) /\ (runnable c s i = false -> att (nd s i) = 0).
Proof.
  intros c Hn s R Q D Dr i Hi L. destruct (exact_attempts c Hn s R Q D Dr i Hi) as [A B]. split; [|exact B].
  intros Hr. destruct (A Hr) as (last & fs & _ & _ & _ & E & Le & _). rewrite L in Le. lia.
Qed.
Print Assumptions C03_exactly_once.

(* Dry run: no execution of the scheduler model contains the start of a step command or of a handler command ... *)
Theorem C03_dry : forall c : cfg, dry c = true -> forall ls s s', run c s ls = Some s' ->
  forall l, In l ls -> (forall i, l <> WExecStart i) /\ (forall h, l <> HStart h).
Proof.
  intros c Hd ls s s' Hr l Hin.
  (* in a dry run the two labels are disabled in every state *)
  assert (H : ~ ((exists i, l = WExecStart i) \/ (exists h, l = HStart h))).
  { apply (run_never c (fun _ => True) (fun l => (exists i, l = WExecStart i) \/ (exists h, l = HStart h)))
      with (ls := ls) (s := s) (s' := s'); auto.
    intros s0 l0 _ [[i ->]|[h ->]]; cbn [step].
    - destruct (ph (nd s0 i)); try reflexivity. now rewrite Hd, andb_false_r.
    - destruct (pc s0) as [| | |[|h' t] [|]|]; try reflexivity. now rewrite Hd, andb_false_r. }
  split; intros x ->; apply H; eauto.
Qed.
Print Assumptions C03_dry.

(* ... and the agent's dry run touches neither history, nor the socket, nor the probe (agent.go:108-111 returns before
   setupDatabase). *)
Theorem C03_dry_agent : forall e : env, e_dry e = true ->
  let acts := fst (Run.run e) in
  existsb is_hist acts = false /\ existsb is_exec acts = false /\ existsb is_sock acts = false /\ existsb is_probe acts = false.
Proof. exact dry_run_nothing. Qed.
Print Assumptions C03_dry_agent.

(* Non-vacuity: in the diamond run b is executed twice (fail, ok) with retryCount 1; in the mixed run a exhausts its
   limit (2 attempts, limit 1) and b, c, d are not runnable; the dry diamond run completes with zero attempts. *)
Example C03_nonvacuous :
  ((donech diamond = true /\ norepeat diamond) /\
   exists s, run diamond (init diamond) diamond_full = Some s /\ pc s = LDone /\ quiet s /\ dry diamond = false /\
     map (fun i => (st (nd s i), rc (nd s i), att (nd s i), outs (nd s i))) [0; 1; 2; 3] =
       [(NSuccess, 0, 1, [true]); (NSuccess, 1, 2, [true; false]); (NSuccess, 0, 1, [true]); (NSuccess, 0, 1, [true])] /\
     length diamond_full <= ProofsTerm.bound diamond) /\
  (exists s, run diamond_dry (init diamond_dry) diamond_dry_full = Some s /\ pc s = LDone /\ dry diamond_dry = true /\
     map (fun i => (st (nd s i), att (nd s i))) [0; 1; 2; 3] = [(NSuccess, 0); (NSuccess, 0); (NSuccess, 0); (NSuccess, 0)]).
Proof. split; [exact (conj diamond_ok diamond_done)|]. apply ex_run. vm_compute. auto. Qed.
