(* C13 - any file content is either rejected with an error or yields a runnable DAG.
   Model: Loader/Model.v (builder.go, parser.go, assert.go, condition.go, patternutil.go, status.go function by
   function; Panic = Go nil dereference / failed type assertion / slice out of range), Loader/Decode.v (the typing
   rules of yaml.v2 + mapstructure and the two checks of loader.go's decode).  The model follows the REPAIRED code
   (/repo fix commits c2912bd F13a, 519d0a6 F13b, e67ca4a F13g, c021988 F13c, 089471d F13d, aac42fa F13e,
   667fb54 F13f; of the parameter fixes of C11, 0f1faec - value[1:len-1] - is followed in parseParamValue_one, while
   ff6cf28 changes the tokenizer's regular expression, which is a parameter here).
   Tie to the code: tools/props/C13.py (definition trees through the real LoadYAML / LoadMetadata /
   LoadWithoutEval / Load against the model on the same tree).

   Every theorem quantifies over ALL untyped trees / decoded definitions, options, initial environments and over
   every value of the library parameters (cron parse verdict, signal validity, regexp compilability, parameter
   tokenizer, command outputs, pattern matcher).  What the theorems still assume:
     - two hypotheses on libraries in the no-panic theorems: the cron parser panics only on a bare TZ= / CRON_TZ=
       prefix - PROVED for the Cron model (C09), see C13_load_no_panic_cron; a parameter value matched by the quoted
       alternative of the tokenizer's regular expression holds its two quotes (value[1:len-1] of fix 0f1faec);
     - `build` taken alone still assumes `no_nil d`: that is exactly what decode guarantees (C13_decode_no_nil).
   No theorem restricts the class of definitions it speaks of, and no clause of the property is refuted. *)
From Coq Require Import List ZArith String.
Import ListNotations.
From BD.Loader Require Import Str Model Decode Proofs DecodeProofs LoadProofs CronPlug Witness.
Open Scope string_scope.
Open Scope list_scope.

(* never crashes: decode + build over EVERY untyped tree, every entry point (options) *)
Theorem C13_load_no_panic :
  forall (cron : string -> cronv) (sig_ok : string -> bool) (tokenize : string -> list (string * string))
         (sh : string -> option string),
  (forall s, cron s = CronPanic -> tz_only s = true) ->
  (forall s n v, In (n, v) (tokenize s) -> quoted_wf v) ->
  forall (o : opts) (root : yv) (e : envt),
  outcome (load_tree cron sig_ok tokenize sh o root e) <> Panic.
Proof. exact load_no_panic. Qed.
Print Assumptions C13_load_no_panic.

(* the same with the cron parser of the Cron model: the cron hypothesis is proved, the tokenizer one remains *)
Theorem C13_load_no_panic_cron :
  forall (sig_ok : string -> bool) (tokenize : string -> list (string * string)) (sh : string -> option string),
  (forall s n v, In (n, v) (tokenize s) -> quoted_wf v) ->
  forall (o : opts) (root : yv) (e : envt),
  outcome (load_tree cron_of_parse sig_ok tokenize sh o root e) <> Panic.
Proof. exact load_no_panic_cron. Qed.
Print Assumptions C13_load_no_panic_cron.

Theorem C13_cron_parse_panics_only_on_tz_prefix : forall s, cron_of_parse s = CronPanic -> tz_only s = true.
Proof. exact cron_parse_panic_tz. Qed.

Theorem C13_decode_no_panic : forall root : yv, decode root <> Panic.
Proof. exact decode_no_panic. Qed.
Theorem C13_decode_no_nil : forall (root : yv) (d : definition), decode root = Ok d -> no_nil d = true.
Proof. exact decode_no_nil. Qed.
Theorem C13_build_no_panic :
  forall (cron : string -> cronv) (sig_ok : string -> bool) (tokenize : string -> list (string * string))
         (sh : string -> option string),
  (forall s, cron s = CronPanic -> tz_only s = true) ->
  (forall s n v, In (n, v) (tokenize s) -> quoted_wf v) ->
  forall (o : opts) (d : definition) (base : list string),
  no_nil d = true ->
  forall e : envt, outcome (build cron sig_ok tokenize sh o d base e) <> Panic.
Proof. exact build_no_panic. Qed.
Print Assumptions C13_build_no_panic.

(* accepted => well-formed: every step and handler of an accepted DAG has a name and a valid (or no) stop signal; every schedule expression
   passed parseCron *)
Theorem C13_wf :
  forall (cron : string -> cronv) (sig_ok : string -> bool) (tokenize : string -> list (string * string))
         (sh : string -> option string) (o : opts) (d : definition) (base : list string) (e : envt) (g : dag),
  outcome (build cron sig_ok tokenize sh o d base e) = Ok g ->
  (forall s, In s (all_steps g) -> step_wf sig_ok s) /\
  forallb (cron_ok cron) (g_schedule g) = true /\ forallb (cron_ok cron) (g_stopSchedule g) = true /\
  forallb (cron_ok cron) (g_restartSchedule g) = true.
Proof. exact build_wf. Qed.
Print Assumptions C13_wf.

(* every step and handler of an accepted DAG has something to execute (since fix aac42fa) *)
Theorem C13_executable :
  forall (cron : string -> cronv) (sig_ok : string -> bool) (tokenize : string -> list (string * string))
         (sh : string -> option string) (o : opts) (d : definition) (base : list string) (e : envt) (g : dag),
  outcome (build cron sig_ok tokenize sh o d base e) = Ok g ->
  forall s, In s (all_steps g) -> step_executable s = true.
Proof.
  intros cron sig_ok tokenize sh o d base e g H s Hin.
  apply (build_steps_accepted cron sig_ok tokenize sh _ _ _ _ _ H s Hin).
Qed.
Print Assumptions C13_executable.

(* "runnable" also asks that the runner can use the accepted DAG: the pointers it dereferences without a test (SMTP in
   agent.setup; ErrorMail / InfoMail in the reporter once mailOn or a step's mailOnError asks for a mail) are set by
   every full build *)
Theorem C13_runner_pointers :
  forall (cron : string -> cronv) (sig_ok : string -> bool) (tokenize : string -> list (string * string))
         (sh : string -> option string) (o : opts) (d : definition) (base : list string) (e : envt) (g : dag),
  outcome (build cron sig_ok tokenize sh o d base e) = Ok g -> o_metadataOnly o = false ->
  is_some (g_smtp g) = true /\ is_some (g_errorMail g) = true /\ is_some (g_infoMail g) = true.
Proof.
  intros cron sig_ok tokenize sh o d base e g H Hm.
  destruct (build_ok_inv _ _ _ _ _ _ _ _ _ H) as (env & sch & par & _ & Hrest).
  rewrite Hm in Hrest. destruct Hrest as (vars & steps & logDir & hs & smtp & pre & _ & _ & ->).
  simpl. auto.
Qed.
Print Assumptions C13_runner_pointers.

(* evaluating conditions never crashes, whatever the expected pattern (since fix 089471d) *)
Theorem C13_conditions :
  forall (re_ok : string -> bool) (sh : string -> option string) (cond_met : string -> string -> bool)
         (cs : list condition) (e : envt),
  outcome (evalConditions re_ok sh cond_met cs e) <> Panic.
Proof. exact evalConditions_np. Qed.
Print Assumptions C13_conditions.

(* accepted => the status is serialisable, so that the agent's live status endpoint does not reach its error path
   (since fix 667fb54) *)
Theorem C13_serialisable :
  forall (cron : string -> cronv) (sig_ok : string -> bool) (tokenize : string -> list (string * string))
         (sh : string -> option string) (o : opts) (d : definition) (base : list string) (e : envt) (g : dag),
  outcome (build cron sig_ok tokenize sh o d base e) = Ok g ->
  json_ok g = true /\ serve_status g = Ok tt.
Proof.
  intros cron sig_ok tokenize sh o d base e g H.
  assert (Hj : json_ok g = true).
  { apply json_ok_all_steps. intros s Hin. apply (build_steps_accepted cron sig_ok tokenize sh _ _ _ _ _ H s Hin). }
  split; [exact Hj|]. unfold serve_status. rewrite Hj. reflexivity.
Qed.
Print Assumptions C13_serialisable.

(* the inputs of the repaired defects, as positive examples *)
(* before fix c2912bd the model answered Panic *)
Example C13_fixed_F13a :
  no_nil (def_of tree_F13a) = true /\ outcome (buildW oYAML (def_of tree_F13a) [] []) = Err /\
  outcome (buildW oMeta (def_of tree_F13a) [] []) = Err.
Proof. exact fixed_F13a. Qed.
(* before fix 519d0a6 the model answered Panic *)
Example C13_fixed_F13b :
  cronW "TZ=UTC" = CronPanic /\ d_schedule (def_of tree_F13b) = VStr "TZ=UTC" /\
  outcome (buildW oYAML (def_of tree_F13b) [] []) = Err /\ outcome (buildW oMeta (def_of tree_F13b) [] []) = Err.
Proof. exact fixed_F13b. Qed.
(* before fix c021988 decode let the null elements through and build answered Panic *)
Example C13_fixed_F13c :
  outcome (loadW oYAML (m [("steps", VList [VNull])])) = Err /\
  outcome (loadW oYAML (m [("functions", VList [VNull]); ("steps", VList [step1])])) = Err /\
  outcome (loadW oYAML (m [("preconditions", VList [VNull]); ("steps", VList [step1])])) = Err /\
  outcome (loadW oYAML (m [("steps", VList [m [("name", VStr "s1"); ("command", VStr "echo hi"); ("preconditions", VList [VNull])]])])) = Err.
Proof. exact fixed_F13c. Qed.
(* before fix e67ca4a decode answered Panic *)
Example C13_fixed_F13g :
  decode (m [("steps", VList [VMap [(VStr "name", VStr "s1"); (VStr "command", VStr "echo"); (VInt 1, VStr "x")]])]) = Err
  /\ decode (m [("smtp", VMap [(VNull, VStr "x")])]) = Err.
Proof. exact fixed_F13g. Qed.
(* before fix 089471d evaluating the accepted condition answered Panic *)
Example C13_fixed_F13d :
  exists d g, outcome (buildW oYAML d [] []) = Ok g /\ reW "re:[" = false /\
    outcome (evalConditions reW shW metW (g_preconditions g) []) = Err.
Proof. exact fixed_F13d. Qed.
(* before fix aac42fa these four definitions were accepted with nothing to execute *)
Example C13_fixed_F13e :
  outcome (loadW oYAML (m [("steps", VList [m [("name", VStr "s1"); ("command", VList [])]])])) = Err /\
  outcome (loadW oYAML (m [("steps", VList [m [("name", VStr "s1"); ("command", VList [VStr ""])]])])) = Err /\
  outcome (loadW oYAML (m [("steps", VList [m [("name", VStr "s1"); ("executor", VStr "")]])])) = Err /\
  outcome (loadW oYAML (m [("functions", VList [m [("name", VStr "f"); ("params", VStr "x"); ("command", VStr "$x")]]);
                           ("steps", VList [m [("name", VStr "s1"); ("call", m [("function", VStr "f"); ("args", m [("x", VStr "")])])]])])) = Err.
Proof. exact fixed_F13e. Qed.

(* before fix 667fb54 both were accepted with a status that json.Marshal refuses (serve_status = Panic) *)
Example C13_fixed_F13f :
  (exists g, outcome (loadW oYAML tree_F13f_map) = Ok g /\ json_ok g = true /\ serve_status g = Ok tt) /\
  outcome (loadW oYAML tree_F13f_nan) = Err.
Proof. exact fixed_F13f. Qed.

(* non-vacuity: a definition with a schedule mapping, evaluated env, a function call, a sub-workflow, an executor
   with nested config, handlers and regular-expression preconditions is accepted *)
Example C13_nonvacuous :
  decode example_tree = Ok example_def /\ no_nil example_def = true /\
  (exists g, outcome (buildW oYAML example_def [] []) = Ok g /\ List.length (all_steps g) = 7 /\
             List.length (g_schedule g) = 2 /\ List.length (all_conditions g) = 2 /\ json_ok g = true) /\
  (exists g, outcome (buildW oLoad example_def [] []) = Ok g /\
             effects (buildW oLoad example_def [] []) = [EExec "echo a"; ESetenv "A" ""; ESetenv "B" "2"]).
Proof. exact premises_satisfiable. Qed.
