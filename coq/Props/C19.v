(* C19 - listing, viewing and validating a DAG has no side effects.
   Model: Loader/Model.v - `build` returns, beside the outcome, the EFFECT LOG: one entry per
   exec.Command(...).Output() of substituteCommands / parseParamValue and one per successful os.Setenv (reads of the
   environment are not effects).  Entry points = option values: LoadYAML / LoadWithoutEval (noEval), LoadMetadata
   (noEval, metadataOnly), Load (evaluating).  The model follows the REPAIRED code (/repo fix commits 4348d0d F19a,
   a55d876 F19b): the property holds of every definition, with `noEval` as its only premise.
   Tie to the code: tools/props/C19.py (canaries in every string-valued field through every non-executing entry
   point of /repo, compared with the effect log of the model). *)
From Coq Require Import List ZArith String.
Import ListNotations.
From BD.Loader Require Import Str Model Decode Proofs DecodeProofs LoadProofs Witness SessionProofs.
Open Scope string_scope.
Open Scope list_scope.

(* for ALL definitions, options, base environments and initial environments: under noEval nothing is executed,
   nothing is exported and the environment is what it was *)
Theorem C19_no_effects :
  forall (cron : string -> cronv) (sig_ok : string -> bool) (tokenize : string -> list (string * string))
         (sh : string -> option string) (o : opts) (d : definition) (base : list string) (e : envt),
  o_noEval o = true ->
  effects (build cron sig_ok tokenize sh o d base e) = [] /\ env_after (build cron sig_ok tokenize sh o d base e) = e.
Proof. exact build_no_effects. Qed.
Print Assumptions C19_no_effects.

(* the same over ALL untyped trees (decoding has no effect) *)
Theorem C19_load_no_effects :
  forall (cron : string -> cronv) (sig_ok : string -> bool) (tokenize : string -> list (string * string))
         (sh : string -> option string) (o : opts) (root : yv) (e : envt),
  o_noEval o = true ->
  effects (load_tree cron sig_ok tokenize sh o root e) = [] /\ env_after (load_tree cron sig_ok tokenize sh o root e) = e.
Proof. exact load_no_effects. Qed.
Print Assumptions C19_load_no_effects.

(* the display path of the web server (client.GetStatus and what is built on it): load without evaluation, then
   graph construction for validation - node initialisation evaluates nothing, so the path adds no effect.
   (What Node.init of /repo really does is outside `build`; it is covered by the canary monitor of tools/props/C19.py,
   which drives client.GetStatus / GetAllStatus / the API handlers.) *)
Theorem C19_display_no_effects :
  forall (cron : string -> cronv) (sig_ok : string -> bool) (tokenize : string -> list (string * string))
         (sh : string -> option string) (o : opts) (root : yv) (e : envt),
  o_noEval o = true ->
  effects (display cron sig_ok tokenize sh o root e) = [] /\ env_after (display cron sig_ok tokenize sh o root e) = e.
Proof. exact display_no_effects. Qed.
Print Assumptions C19_display_no_effects.

(* With or without evaluation: the effects of a load that does not crash are those of env, then params, then logDir,
   and of nothing else - steps, handlers, conditions, mail settings and functions are not evaluated at load time. *)
Theorem C19_eval_effects :
  forall (cron : string -> cronv) (sig_ok : string -> bool) (tokenize : string -> list (string * string))
         (sh : string -> option string) (o : opts) (d : definition) (base : list string) (e : envt),
  outcome (build cron sig_ok tokenize sh o d base e) <> Panic ->
  let x1 := buildEnvs sh d o base e in
  let x2 := buildParams tokenize sh d o (env_after x1) in
  let x3 := buildLogDir sh d o (env_after x2) in
  effects (build cron sig_ok tokenize sh o d base e) =
  effects x1 ++ effects x2 ++ (if o_metadataOnly o then [] else effects x3).
Proof.
  intros cron sig_ok tokenize sh o d base e H. cbv zeta. unfold build in *.
  (* stage by stage; a pure stage (`lift`) has no effect and leaves the environment *)
  apply bind_try_effects in H as (r_env & H & ->).
  apply bind_try_effects in H as (r_sch & H & ->).
  apply bind_try_effects in H as (r_par & H & ->).
  rewrite effects_lift, env_after_lift in *. cbn [app].
  do 2 f_equal.   (* both sides begin with effects x1 ++ effects x2 *)
  destruct (o_metadataOnly o); [collected; reflexivity|].
  apply bind_try_effects in H as (r_st & H & ->).
  apply bind_try_effects in H as (r_log & H & ->).
  apply bind_try_effects in H as (r_hs & H & ->).
  apply bind_try_effects in H as (r_smtp & H & ->).
  apply bind_try_effects in H as (r_pre & H & ->).
  apply bind_try_effects in H as (r_fn & _ & ->).
  (* of the six stages four are pure (`lift`), buildSMTPConfig only reads the environment and the last step is a
     ret or a lift: what is left is effects x3 ++ [] *)
  rewrite !effects_lift, !env_after_lift. cbn [app].
  etransitivity; [|apply app_nil_r]. f_equal. collected; reflexivity.
Qed.
Print Assumptions C19_eval_effects.

(* the witnesses of the repaired defects, as positive examples *)
(* before fix 4348d0d the model answered [EExec "touch /x"] under noEval *)
Example C19_fixed_F19a :
  exists d, d_logDir d = "`touch /x`" /\ effects (buildW oYAML d [] []) = [] /\
            effects (buildW oLoad d [] []) = [EExec "touch /x"].
Proof. exact fixed_F19a. Qed.
(* before fix a55d876 the model answered [ESetenv "1" "p1"; ESetenv "2" "p2"] under noEval, even with metadataOnly *)
Example C19_fixed_F19b :
  exists d, d_params d = "p1 p2" /\
    effects (buildW oYAML d [] []) = [] /\ effects (buildW oMeta d [] []) = [] /\
    effects (buildW oLoad d [] []) = [ESetenv "1" "p1"; ESetenv "2" "p2"].
Proof. exact fixed_F19b. Qed.

(* non-vacuity: a definition with evaluated env, default parameters and a command substitution in logDir has no effect
   when viewed / listed, and the effects of env, params, logDir - in this order - when loaded for execution *)
Example C19_nonvacuous :
  decode example_tree2 = Ok (def_of example_tree2) /\
  effects (buildW oYAML (def_of example_tree2) [] []) = [] /\ effects (buildW oMeta (def_of example_tree2) [] []) = [] /\
  effects (buildW oLoad (def_of example_tree2) [] []) =
    [EExec "echo a"; ESetenv "A" ""; ESetenv "B" "2"; ESetenv "1" "p1"; ESetenv "2" "X=2"; EExec "echo /tmp/l"].
Proof. exact no_effects_example. Qed.

(* Whole sessions: any sequence of non-executing requests (plain loads for listing / validation, displays for viewing)
   of any definitions, each starting in the environment its predecessor left, executes nothing and ends in the
   environment it started in - listing and viewing any number of times changes nothing. *)
Theorem C19_session_no_effects :
  forall (cron : string -> cronv) (sig_ok : string -> bool) (tokenize : string -> list (string * string))
         (sh : string -> option string) (js : list job),
  Forall job_noeval js -> forall e : envt, session cron sig_ok tokenize sh js e = (e, []).
Proof.
  intros cron sig_ok tokenize sh js H. induction H as [|j js Hj _ IH]; intros e; cbn [session]; [reflexivity|].
  rewrite (run_job_no_effects cron sig_ok tokenize sh j e Hj), IH. reflexivity.
Qed.
Print Assumptions C19_session_no_effects.

(* the premise is met by a session mixing the three non-executing entry points over the example tree *)
Example C19_session_premise :
  Forall job_noeval [(false, oYAML, example_tree2); (true, oYAML, example_tree2); (false, oMeta, example_tree2)].
Proof. repeat constructor. Qed.
