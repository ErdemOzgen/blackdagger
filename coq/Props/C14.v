(* C14 - only well-formed dependency graphs are accepted to execution.
   This file holds nothing but the property theorems (closed by `exact`), Print Assumptions and one Example.
   Model: Graph/Kahn.v (hasCycle, graph.go:230-264), Graph/Accept.v (setup/findStep/addEdge, graph.go:212-283),
   Agent/Run.v (agent.go:98-210).  Tie to the code: tools/props/C14.py (differential run of the real
   scheduler.NewExecutionGraph against `gaccept`). *)
From Coq Require Import List String Relations.
Import ListNotations.
From BD.Graph Require Import Kahn Accept AcceptProof.
From BD.Agent Require Import Run RunProofs.

(* A DAG with distinct step names is accepted iff every depends entry names an existing step and the
   dependency relation on names has no cycle (self-dependency = a one-step cycle). *)
Theorem C14_gaccept_iff : forall ss : list gstep, NoDup (map gname ss) ->
  (gaccept ss = VOk <-> all_resolve ss /\ acyclic_names ss).
Proof. exact gaccept_ok_iff. Qed.
Print Assumptions C14_gaccept_iff.

(* The refusal reasons are exact too. *)
Theorem C14_missing_iff : forall ss : list gstep, gaccept ss = VMissing <-> ~ all_resolve ss.
Proof. exact gaccept_missing_iff. Qed.
Print Assumptions C14_missing_iff.

Theorem C14_cycle_witness : forall ss : list gstep, NoDup (map gname ss) -> gaccept ss = VCycle ->
  all_resolve ss /\ exists x, clos_trans string (dep_rel ss) x x.
Proof. exact gaccept_cycle_witness. Qed.
Print Assumptions C14_cycle_witness.

(* A refused graph: the agent's run consists of the graph construction alone and returns an error -
   no precondition evaluation, probe, history, socket, step or handler action. *)
Theorem C14_refused_is_silent : forall e : env, e_gaccept e = false -> run e = ([ABuildGraph], true).
Proof. exact refused_graph_is_silent. Qed.
Print Assumptions C14_refused_is_silent.

(* Non-vacuity: a diamond with distinct names is accepted; a self-dependency and a two-cycle are refused
   as cycles; a dangling name as missing. *)
Example C14_nonvacuous :
  (gaccept [mk "a" []; mk "b" ["a"]; mk "c" ["a"]; mk "d" ["b"; "c"]] = VOk /\
   NoDup (map gname [mk "a" []; mk "b" ["a"]; mk "c" ["a"]; mk "d" ["b"; "c"]]))%string
  /\ gaccept [mk "a" ["a"]]%string = VCycle /\ gaccept [mk "a" ["b"]; mk "b" ["a"]]%string = VCycle
  /\ gaccept [mk "a" ["zz"]; mk "b" ["a"]]%string = VMissing.
Proof. exact (conj gaccept_diamond (conj gaccept_self (conj gaccept_two gaccept_dangling))). Qed.

(* ---- link to the step scheduler (Sched/Model.v) ---------------------------------------------------------------
   A configuration whose depends entries resolve and whose edge list passes the code's cycle check has a rank that
   strictly decreases along dependencies (`wf_deps`, the premise of the scheduler's progress theorems C15/C05), and
   every run of it can be driven to completion from any reachable state. *)
From BD.Sched Require Import Model Proofs ProofsTerm.
From BD.Graph Require Import Rank RankSched.

Theorem C14_accepted_graph_wf_deps : forall c : cfg,
  (forall i d, i < nsteps c -> In d (deps (steps c i)) -> d < nsteps c) ->
  has_cycle (nsteps c) (cfg_edges c) = false -> wf_deps c.
Proof. exact accepted_graph_wf_deps. Qed.
Print Assumptions C14_accepted_graph_wf_deps.

Theorem C14_accepted_graph_completes : forall c : cfg, norepeat c ->
  (forall i d, i < nsteps c -> In d (deps (steps c i)) -> d < nsteps c) ->
  has_cycle (nsteps c) (cfg_edges c) = false ->
  forall s, Reach c s -> exists ls s', run c s ls = Some s' /\ pc s' = LDone.
Proof. exact accepted_graph_completes. Qed.
Print Assumptions C14_accepted_graph_completes.

(* An accepted edge list has an execution order: a duplicate-free list of all n nodes in which every dependency of a
   node stands behind it (read from the back it is a topological order: the order in which the cycle check eliminates
   the nodes).  R = u :: R0 is `topo` when every edge w -> u has w in R0, recursively. *)
From BD.Graph Require Import KahnProof.
Theorem C14_accepted_has_topological_order : forall (n : nat) (E : list (nat * nat)),
  (forall u v, In (u, v) E -> u < n /\ v < n) -> has_cycle n E = false ->
  exists R, NoDup R /\ topo E R /\ forall v, v < n -> In v R.
Proof. exact topo_order. Qed.
Print Assumptions C14_accepted_has_topological_order.
