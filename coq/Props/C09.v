(* C09 - the scheduler daemon starts each DAG exactly at its scheduled minutes.
   This file holds nothing but the property theorems (closed by `exact`), Print Assumptions and Examples.
   Models: Cron/Model.v (robfig/cron v3.0.1 Parser.Parse + SpecSchedule.Next for the 5-field option set, civil
   calendar), Cron/Schedule.v (builder.go buildSchedule, parser.go parseScheduleMap), Daemon/Model.v
   (scheduler.go run, entryreader.go Read / initDags / watchDags, job.go Start / Stop / Restart).
   Proofs: Cron/ProofsCal.v (calendar), Cron/ProofsNext.v (Next), Cron/ProofsSched.v (the loader does not panic);
   Daemon/ProofsTick.v (the calls of one tick, counted: tick_count), Daemon/Proofs.v (the guard formula per kind of
   call: kind_iff, kind_in_iff), Daemon/ProofsSeq.v (histories: Inv, no_miss_kind, alive, bad files, no_double),
   Daemon/Witness.v (concrete histories, evaluated).
   Tie to the code: tools/props/C09.py (differential runs of dag.LoadYAML, Parsed.Next and of the real
   scheduler.New + watcher against these models; the property monitor on what the daemon did).

   FULL STATEMENT:
     for every history of ticks / edits / restarts, a Start for DAG d is issued by the tick of minute m iff one of
     d's start schedules matches m, d is not suspended, not running, and its latest run started before m - so no
     minute is missed and none is started twice; Stop only on running DAGs; Restart at each matching minute; an
     unloadable file never affects the other DAGs.
   Three classes of defects of the pinned tree contradicted it; all are repaired in /repo and the model follows the
   repaired code: F9a (a schedule without activation up to the end of year+5 made Next return the zero time and the
   entry was invoked at every tick; 24d4f27), F9b (two start schedules of one DAG matching the same minute started
   it twice; 7357cf4: one entry per DAG and operation) and F13a/F13b (a file on which the schedule loader panicked
   killed the daemon; c2912bd, 519d0a6).  Every clause is now proved in full - no _partial, no _refuted theorem
   remains.  What C09_no_double still assumes (tick minutes never decrease, a tick never runs before its minute, the
   reported latest start never moves backwards) delimits the histories the property speaks about; see ProofsSeq.v. *)
From Coq Require Import List String ZArith Bool.
Import ListNotations.
From BD.Cron Require Import Model Schedule ProofsCal ProofsNext ProofsSched.
From BD.Daemon Require Import Model ProofsTick Proofs ProofsSeq Witness.
Local Open Scope Z_scope.

(* civil date <-> day number and civil time <-> unix minute are inverse on the whole of Z *)
Theorem C09_calendar_of_day : forall D y mo d, civil_from_days D = (y, mo, d) ->
  valid_date y mo d = true /\ days_from_civil y mo d = D.
Proof. exact civil_days_roundtrip. Qed.
Print Assumptions C09_calendar_of_day.

Theorem C09_calendar_of_date : forall y mo d, valid_date y mo d = true ->
  civil_from_days (days_from_civil y mo d) = (y, mo, d).
Proof. exact days_civil_roundtrip. Qed.
Print Assumptions C09_calendar_of_date.

Theorem C09_calendar_of_minute : forall m, minute_of_civil (civil_of_minute m) = m /\ valid_civil (civil_of_minute m) = true.
Proof. exact minute_civil_roundtrip. Qed.
Print Assumptions C09_calendar_of_minute.

Theorem C09_calendar_of_civil : forall c, valid_civil c = true -> civil_of_minute (minute_of_civil c) = c.
Proof. exact civil_minute_roundtrip. Qed.
Print Assumptions C09_calendar_of_civil.

(* Next = the least matching minute after t within the horizon (end of year(t+1s)+5), else None *)
Theorem C09_next_least : forall sp t, least (matches sp) (next_lo t) (horizon sp t) (next sp t).
Proof. exact next_least. Qed.
Print Assumptions C09_next_least.

Theorem C09_next_some : forall sp t m, next sp t = Some m ->
  next_lo t <= m < horizon sp t /\ matches sp m = true /\ forall y, next_lo t <= y < m -> matches sp y = false.
Proof. exact next_some. Qed.
Print Assumptions C09_next_some.

Theorem C09_next_none : forall sp t, next sp t = None -> forall y, next_lo t <= y < horizon sp t -> matches sp y = false.
Proof. exact next_none. Qed.
Print Assumptions C09_next_none.

(* a whole minute m is searched iff it lies strictly after the instant t (seconds) *)
Theorem C09_next_after : forall t m, next_lo t <= m <-> t < 60 * m.
Proof. exact next_lo_spec. Qed.
Print Assumptions C09_next_after.

(* the skipping implementation equals the naive minute-by-minute search *)
Theorem C09_next_eq_naive : forall sp t, next sp t = next_naive sp t.
Proof. exact next_eq_naive. Qed.
Print Assumptions C09_next_eq_naive.

(* the daemon's test Next(tick - 1s) <= tick holds exactly at the minutes at which the schedule fires *)
Theorem C09_due : forall sp m, due sp m = true <-> matches sp m = true.
Proof. exact due_iff_matches. Qed.
Print Assumptions C09_due.

Theorem C09_due_of_match : forall sp m, matches sp m = true -> due sp m = true /\ next sp (60 * m - 1) = Some m.
Proof. exact due_of_match. Qed.
Print Assumptions C09_due_of_match.

(* the former F9a: no activation within the horizon - never due *)
Theorem C09_due_of_none : forall sp m, next sp (60 * m - 1) = None -> due sp m = false /\ matches sp m = false.
Proof. exact due_of_none. Qed.
Print Assumptions C09_due_of_none.

Example C09_due_former_f9a : parse "0 0 30 2 *" = POk feb30 /\ next feb30 (60 * 28589040 - 1) = None /\ due feb30 28589040 = false.
Proof. exact due_former_f9a. Qed.

Example C09_due_sat : exists sp, parse "*/15 3 * * 1-5" = POk sp /\
    next sp (60 * 28589040 - 1) <> None /\ next sp (60 * 28588500 - 1) = Some 28588500 /\
    matches sp 28588500 = true /\ due sp 28588500 = true /\ due sp 28589040 = false.
Proof. exact due_premise_sat. Qed.

(* faithful form, no premise on the schedules: per file and kind, the number of calls is the number of schedules
   that are due and pass job.go's guard (file_count) *)
Theorem C09_tick_count : forall s m c, NoDup (map fst (tbl s)) ->
  count c (tick_calls s m) =
  if alive s then
    match lookup (call_file c) (tbl s) with
    | Some e => if mem (call_file c) (susp s) then 0%nat else file_count s m (call_file c) e c
    | None => 0%nat
    end
  else 0%nat.
Proof. exact tick_count. Qed.
Print Assumptions C09_tick_count.

(* b2n true = 1, b2n false = 0; hit m sps = some schedule of the list fires at minute m *)
Theorem C09_hit_iff : forall m sps, hit m sps = true <-> exists sp, In sp sps /\ matches sp m = true.
Proof. exact hit_iff. Qed.
Print Assumptions C09_hit_iff.

Theorem C09_start_iff : forall s m, NoDup (map fst (tbl s)) ->
  forall f e, lookup f (tbl s) = Some e ->
  count (CStart f) (tick_calls s m) =
  b2n (alive s && negb (mem f (susp s)) && start_guard (status_of s f) m && hit m (starts e)).
Proof. exact (fun s m K => kind_iff s m K KStart). Qed.
Print Assumptions C09_start_iff.

Theorem C09_stop_iff : forall s m, NoDup (map fst (tbl s)) ->
  forall f e, lookup f (tbl s) = Some e ->
  count (CStop f) (tick_calls s m) =
  b2n (alive s && negb (mem f (susp s)) && stop_guard (status_of s f) && hit m (stops e)).
Proof. exact (fun s m K => kind_iff s m K KStop). Qed.
Print Assumptions C09_stop_iff.

Theorem C09_restart_iff : forall s m, NoDup (map fst (tbl s)) ->
  forall f e, lookup f (tbl s) = Some e ->
  count (CRestart f) (tick_calls s m) = b2n (alive s && negb (mem f (susp s)) && hit m (restarts e)).
Proof. exact restart_iff. Qed.
Print Assumptions C09_restart_iff.

Theorem C09_start_in_iff : forall s m, NoDup (map fst (tbl s)) ->
  forall f e, lookup f (tbl s) = Some e ->
  (In (CStart f) (tick_calls s m) <->
   alive s = true /\ mem f (susp s) = false /\ start_guard (status_of s f) m = true /\
   exists sp, In sp (starts e) /\ matches sp m = true).
Proof. exact (fun s m K => kind_in_iff s m K KStart). Qed.
Print Assumptions C09_start_in_iff.

Theorem C09_stop_in_iff : forall s m, NoDup (map fst (tbl s)) ->
  forall f e, lookup f (tbl s) = Some e ->
  (In (CStop f) (tick_calls s m) <->
   alive s = true /\ mem f (susp s) = false /\ stop_guard (status_of s f) = true /\
   exists sp, In sp (stops e) /\ matches sp m = true).
Proof. exact (fun s m K => kind_in_iff s m K KStop). Qed.
Print Assumptions C09_stop_in_iff.

Theorem C09_restart_in_iff : forall s m, NoDup (map fst (tbl s)) ->
  forall f e, lookup f (tbl s) = Some e ->
  (In (CRestart f) (tick_calls s m) <->
   alive s = true /\ mem f (susp s) = false /\ exists sp, In sp (restarts e) /\ matches sp m = true).
Proof. exact restart_in_iff. Qed.
Print Assumptions C09_restart_in_iff.

(* at most one call of each kind per DAG and tick - every table, every status, every list of schedules *)
Theorem C09_start_once : forall s m, NoDup (map fst (tbl s)) -> forall c, (count c (tick_calls s m) <= 1)%nat.
Proof. exact call_once. Qed.
Print Assumptions C09_start_once.

(* the operations of one tick do not depend on each other: the calls for f are the same in any two states that agree
   on f's entry, suspension and latest status - whatever other DAGs are loaded, due, running or started in that tick *)
Theorem C09_tick_independent : forall s s' m c,
  NoDup (map fst (tbl s)) -> NoDup (map fst (tbl s')) ->
  alive s = alive s' ->
  lookup (call_file c) (tbl s) = lookup (call_file c) (tbl s') ->
  mem (call_file c) (susp s) = mem (call_file c) (susp s') ->
  status_of s (call_file c) = status_of s' (call_file c) ->
  count c (tick_calls s m) = count c (tick_calls s' m).
Proof. exact tick_independent. Qed.
Print Assumptions C09_tick_independent.

Theorem C09_unknown_file_silent : forall s m, NoDup (map fst (tbl s)) ->
  forall c, lookup (call_file c) (tbl s) = None -> count c (tick_calls s m) = 0%nat.
Proof. exact unknown_file_silent. Qed.
Print Assumptions C09_unknown_file_silent.

(* the input that used to be started twice (F9b) *)
Example C09_former_overlap :
  run (init_state d_f9b) [ORestart; OTick m0 (60 * m0); OTick (m0 + 1) (60 * m0 + 60)] = [[]; [CStart "d0.yaml"]; []]%string /\
  count (CStart "d0.yaml"%string) (tick_calls (after d_f9b [ORestart]) m0) = 1%nat /\
  List.length (filter (fun sp => matches sp m0) (starts (entry_of (after d_f9b [ORestart]) "d0.yaml"%string))) = 2%nat /\
  starts_at "d0.yaml"%string m0 (init_state d_f9b) [ORestart; OTick m0 (60 * m0)] = 1%nat.
Proof. exact former_overlap_starts_once. Qed.

Example C09_start_iff_sat : exists s m f e,
  NoDup (map fst (tbl s)) /\ lookup f (tbl s) = Some e /\
  count (CStart f) (tick_calls s m) = 1%nat /\ count (CStart f) (tick_calls s (m + 1)) = 0%nat.
Proof. exact start_iff_sat. Qed.

(* the inputs that used to be invoked at every tick (F9a) *)
Example C09_former_zero_next :
  run (init_state d_f9a_start) [ORestart; OTick m0 (60 * m0); OTick (m0 + 1) (60 * m0 + 60)] = [[]; []; []] /\
  run (init_state d_f9a_restart) [ORestart; OTick m0 (60 * m0); OTick (m0 + 1) (60 * m0 + 60); OTick (m0 + 2) (60 * m0 + 120)]
    = [[]; []; []; []] /\
  restarts (entry_of (final (init_state d_f9a_restart) [ORestart]) "d0.yaml"%string) = [feb30] /\
  next feb30 (60 * m0 - 1) = None.
Proof. exact former_zero_next_is_silent. Qed.

(* over every history the daemon's table has one entry per file and follows the loadable part of the directory *)
Theorem C09_invariant : forall s o, Inv s -> Inv (fst (step s o)).
Proof. exact step_inv. Qed.
Print Assumptions C09_invariant.

Theorem C09_invariant_init : forall d, NoDup (map fst d) -> Inv (init_state d).
Proof. exact init_inv. Qed.
Print Assumptions C09_invariant_init.

(* the schedule loader returns a value or an error for every YAML value - it never panics *)
Theorem C09_loader_no_panic : forall v, build_schedule v <> PPanic.
Proof. exact build_schedule_no_panic. Qed.
Print Assumptions C09_loader_no_panic.

Theorem C09_parse_cron_no_panic : forall str, parse_cron str <> PPanic.
Proof. exact parse_cron_no_panic. Qed.
Print Assumptions C09_parse_cron_no_panic.

(* a started daemon stays alive over every history, whatever is written to the directory *)
Theorem C09_alive : forall ops s0, alive s0 = true -> forall s o cs, In (s, o, cs) (trace s0 ops) -> alive s = true.
Proof. exact alive_always. Qed.
Print Assumptions C09_alive.

Theorem C09_restart_alive : forall s, alive (fst (step s ORestart)) = true.
Proof. exact (fun s => step_alive_eq s ORestart). Qed.
Print Assumptions C09_restart_alive.

(* no scheduled minute is missed: in every history, once the daemon has been started, every tick that happens
   issues the Start of every loadable DAG file of the directory (present from the start, added or edited since)
   whose guard holds *)
Theorem C09_no_miss : forall s0 pre post, Inv s0 ->
  forall s m w cs, In (s, OTick m w, cs) (trace (final s0 (pre ++ [ORestart])) post) ->
  forall f c e sp, lookup f (dir s) = Some c -> load f c = FOk e -> In sp (starts e) -> matches sp m = true ->
  mem f (susp s) = false -> start_guard (status_of s f) m = true -> In (CStart f) cs.
Proof. exact no_miss_started. Qed.
Print Assumptions C09_no_miss.

Theorem C09_no_miss_alive : forall s0 ops, Inv s0 ->
  forall s m w cs, In (s, OTick m w, cs) (trace s0 ops) -> alive s = true ->
  forall f c e sp, lookup f (dir s) = Some c -> load f c = FOk e -> In sp (starts e) -> matches sp m = true ->
  mem f (susp s) = false -> start_guard (status_of s f) m = true -> In (CStart f) cs.
Proof. exact (no_miss_kind KStart). Qed.
Print Assumptions C09_no_miss_alive.

Theorem C09_no_miss_stop : forall s0 ops, Inv s0 ->
  forall s m w cs, In (s, OTick m w, cs) (trace s0 ops) -> alive s = true ->
  forall f c e sp, lookup f (dir s) = Some c -> load f c = FOk e -> In sp (stops e) -> matches sp m = true ->
  mem f (susp s) = false -> stop_guard (status_of s f) = true -> In (CStop f) cs.
Proof. exact (no_miss_kind KStop). Qed.
Print Assumptions C09_no_miss_stop.

Theorem C09_no_miss_restart : forall s0 ops, Inv s0 ->
  forall s m w cs, In (s, OTick m w, cs) (trace s0 ops) -> alive s = true ->
  forall f c e sp, lookup f (dir s) = Some c -> load f c = FOk e -> In sp (restarts e) -> matches sp m = true ->
  mem f (susp s) = false -> In (CRestart f) cs.
Proof.
  exact (fun s0 ops H0 s m w cs Hin Ha f c e sp Hd Hl Hsp Hm Hsu =>
           no_miss_kind KRestart s0 ops H0 s m w cs Hin Ha f c e sp Hd Hl Hsp Hm Hsu eq_refl).
Qed.
Print Assumptions C09_no_miss_restart.

(* no minute is started twice: over every history - whatever the schedules, the lag, the restarts, the edits - the
   ticks of any minute m0 issue at most one Start for f.  ticks_mono (tick minutes never decrease), and trace_ok (a
   tick never runs before its minute; the latest start reported for f never moves backwards) say which operation
   lists are histories of a daemon and its environment; they exclude no DAG, schedule or file content. *)
Theorem C09_no_double : forall ops s f m0, NoDup (map fst (tbl s)) -> ticks_mono ops -> trace_ok f s ops ->
  (starts_at f m0 s ops <= 1)%nat.
Proof. exact no_double. Qed.
Print Assumptions C09_no_double.

(* the premises are decidable *)
Theorem C09_no_double_dec : forall ops s f m0, NoDup (map fst (tbl s)) ->
  ticks_monob ops = true -> trace_okb f s ops = true -> (starts_at f m0 s ops <= 1)%nat.
Proof. exact no_double_b. Qed.
Print Assumptions C09_no_double_dec.

(* a file whose load returns an error changes nothing the daemon believes; at start-up it is skipped *)
Theorem C09_bad_file : forall s f c, (load f c = FErr \/ load f c = FNotDag) ->
  tbl (fst (step s (OWrite f c))) = tbl s /\ alive (fst (step s (OWrite f c))) = alive s.
Proof. exact bad_file_write. Qed.
Print Assumptions C09_bad_file.

Theorem C09_bad_file_scan : forall s t, NoDup (map fst (dir s)) -> scan (dir s) [] = Some t ->
  forall f, lookup f t = match lookup f (dir s) with
                         | Some c => match load f c with FOk e => Some e | _ => None end
                         | None => None
                         end.
Proof. exact bad_file_scan. Qed.
Print Assumptions C09_bad_file_scan.

(* in full: whatever is written to file f, the entries of every other file stay as they are *)
Theorem C09_bad_file_others : forall s f c h, h <> f ->
  lookup h (tbl (fst (step s (OWrite f c)))) = lookup h (tbl s).
Proof. exact bad_file_others. Qed.
Print Assumptions C09_bad_file_others.

Theorem C09_write_keeps_alive : forall s f c, alive (fst (step s (OWrite f c))) = alive s.
Proof. exact (fun s f c => step_alive_eq s (OWrite f c)). Qed.
Print Assumptions C09_write_keeps_alive.

(* the inputs that used to kill the daemon (F13a, F13b) *)
Example C09_former_loader_panics :
  run (init_state d_f13a) [ORestart; OTick m0 (60 * m0)] = [[]; [CStart "d0.yaml"]]%string /\
  alive (final (init_state d_f13a) [ORestart]) = true /\
  run (init_state d_good) [ORestart; OWrite "d1.yaml" (file (SStr "CRON_TZ=UTC")); OTick m0 (60 * m0)]%string = [[]; []; [CStart "d0.yaml"]]%string /\
  load "d1.yaml" (file (SStr "CRON_TZ=UTC"))%string = FErr /\
  load "d1.yaml" (file (SMap [(KStr "begin", MStr "* * * * *")]))%string = FErr.
Proof. exact former_loader_panics_are_errors. Qed.

(* a history satisfying all premises at once: lag, bunched ticks, a restart inside a ticked minute, a bad file, a
   file added while the daemon runs *)
Example C09_history_sat :
  Inv (init_state d_good) /\ ticks_mono h_ops /\ trace_ok "d0.yaml" (init_state d_good) h_ops /\
  trace_ok "d2.yaml" (init_state d_good) h_ops /\
  run (init_state d_good) h_ops =
    [[]; [CStart "d0.yaml"]; []; []; []; []; []; [CStart "d0.yaml"; CStart "d2.yaml"]; []; []]%string /\
  starts_at "d0.yaml" m0 (init_state d_good) h_ops = 1%nat.
Proof. exact history_sat. Qed.

Example C09_alive_sat : dir_safe (init_state d_good) /\ Forall op_safe h_ops.
Proof. exact alive_sat. Qed.
