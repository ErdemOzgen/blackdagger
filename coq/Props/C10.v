(* C10 - retry re-executes exactly the unfinished part of a recorded run.
   This file holds only property theorems (closed by `exact`), Print Assumptions and Examples.
   Model: Graph/Retry.v (setupRetry, graph.go:178-210) on top of Graph/Kahn.v for the reset set; for the execution part the
   step scheduler Sched/Model.v started from a recorded table (`init_from`, Sched/ProofsRetry.v; Graph/RetrySched.v).
   Tie to the code: tools/props/C10.py (differential run of the real NewExecutionGraphForRetry on every
   acyclic digraph x status vector for n <= 3, sampled beyond; retry runs on the real scheduler). *)
From Coq Require Import List Relations.
Import ListNotations.
From BD.Graph Require Import Kahn Retry RetryProof.

(* On every acyclic graph (any size) and every recorded status vector, the retry set-up terminates (never out
   of fuel) and clears exactly the nodes reachable - reflexively - along dependency edges from a node recorded
   failed (2), canceled (3) or running (1).  Everything else keeps its recorded state. *)
Theorem C10_reset_set : forall (n : nat) (E : list (nat * nat)) (st : nat -> nat),
  (forall u v, In (u, v) E -> u < n /\ v < n) ->
  (forall x, ~ clos_trans nat (edge E) x x) ->
  exists cleared, setup_retry n E st = Some cleared /\
    forall u, In u cleared <-> u < n /\ exists w, w < n /\ bad st w = true /\ clos_refl_trans nat (edge E) w u.
Proof. exact setup_retry_spec. Qed.
Print Assumptions C10_reset_set.

Example C10_reset_nonvacuous :
  setup_retry 4 [(0,1);(0,2);(1,3);(2,3)] (fun i => nth i [4;2;4;4] 0) = Some [1;3] /\
  ((forall u v, In (u, v) [(0,1);(0,2);(1,3);(2,3)] -> u < 4 /\ v < 4) /\ has_cycle 4 [(0,1);(0,2);(1,3);(2,3)] = false).
Proof. exact (conj retry_diamond retry_diamond_premises). Qed.

(* A node recorded *running* (interrupted by a kill) counts as unfinished: it and its dependents are reset.
   (Before the repair of finding F10a the model - like the code - returned Some [] here.) *)
Example C10_running_is_reset :
  setup_retry 3 [(0,1);(1,2)] (fun i => nth i [4;1;0] 0) = Some [1;2].
Proof. exact running_is_reset. Qed.

(* ---- execution part (on the step-scheduler transition system Sched/Model.v) ------------------------------
   The retry starts the scheduler from the recorded table after the reset (`init_from`): steps recorded finished or
   skipped and not reset are kept, every other step starts afresh.  `tbl_consistent` = every dependency of a kept
   finished step let it proceed - what C01 guarantees for any table a run can record.  Premise `norepeat`: no
   repeatPolicy step (as for C02/C03). *)
From BD.Sched Require Import Model Proofs ProofsTerm ProofsRetry.
From BD.Graph Require Import RetrySched.
From BD.Sched Require Import Examples.

(* Steps outside the retried part keep their recorded result and are never executed, in every execution. *)
Theorem C10_keeps_finished : forall (c : cfg), norepeat c -> forall (tbl : nat -> nstatus), tbl_consistent c tbl ->
  forall j ls s, tbl j = NSuccess \/ tbl j = NSkipped ->
  run c (init_from c tbl) ls = Some s -> kept s j /\ ~ In (WExecStart j) ls.
Proof. exact retry_keeps. Qed.
Print Assumptions C10_keeps_finished.

(* A command that starts in a retry belongs to a step that did not complete successfully (or was reset because it
   is downstream of one: C10_reset_set says which). *)
Theorem C10_executes_only_unfinished : forall (c : cfg), norepeat c -> forall (tbl : nat -> nstatus), tbl_consistent c tbl ->
  forall j ls s, run c (init_from c tbl) ls = Some s -> In (WExecStart j) ls -> tbl j <> NSuccess /\ tbl j <> NSkipped.
Proof. exact retry_executes_only_unfinished. Qed.
Print Assumptions C10_executes_only_unfinished.

(* The retry always terminates: every execution from the retry's start state is finite. *)
Theorem C10_terminates : forall (c : cfg), norepeat c -> forall (tbl : nat -> nstatus), tbl_consistent c tbl ->
  forall ls s, run c (init_from c tbl) ls = Some s -> length ls <= measure c (init_from c tbl).
Proof. exact retry_finite. Qed.
Print Assumptions C10_terminates.

(* Non-vacuity: the diamond a -> {b, c} -> d recorded with b not finished (b and d to be run): the premises hold and
   the retry executes b and d once each, leaves a and c untouched, and reaches Done. *)
Example C10_retry_nonvacuous :
  (tbl_consistent diamond retry_tbl /\ norepeat diamond) /\
  retry_obs = Some (LDone, [(NSuccess, 0); (NSuccess, 1); (NSuccess, 0); (NSuccess, 1)]).
Proof. exact (conj retry_example_consistent retry_example_run). Qed.

(* Retrying a run in which every step had finished or been skipped executes no command at all. *)
From BD.Graph Require Import RetryAll.
Theorem C10_finished_run_executes_nothing : forall (c : cfg), norepeat c ->
  forall tbl : nat -> nstatus, tbl_consistent c tbl -> (forall j, tbl j = NSuccess \/ tbl j = NSkipped) ->
  forall ls s, run c (init_from c tbl) ls = Some s -> forall j, ~ In (WExecStart j) ls.
Proof. exact retry_of_finished_run_executes_nothing. Qed.
Print Assumptions C10_finished_run_executes_nothing.
Example C10_finished_run_premise : forall c : cfg,
  tbl_consistent c (fun _ => NSuccess) /\ (forall j : nat, (fun _ : nat => NSuccess) j = NSuccess \/ (fun _ : nat => NSuccess) j = NSkipped).
Proof. exact all_finished_consistent. Qed.

(* ---- "in dependency order" and "subject to scheduling" for the retry ------------------------------------------ *)
From BD.Sched Require Import ProofsFinal.

(* Whenever a command starts in a retry, each dependency of its step is finished, or failed with continueOn.failure,
   or skipped with continueOn.skipped, has no live worker, is not executing and never starts again; a dependency whose
   recorded result was kept shows exactly that recorded status (and was not executed). *)
Theorem C10_dependency_order : forall (c : cfg), norepeat c -> forall (tbl : nat -> nstatus) ls1 i ls2 s1 s2 s3,
  tbl_consistent c tbl -> run c (init_from c tbl) ls1 = Some s1 -> step c s1 (WExecStart i) = Some s2 ->
  run c s2 ls2 = Some s3 -> forall d, In d (deps (steps c i)) ->
  okterm c s1 d /\ active (ph (nd s1 d)) = false /\ ph (nd s1 d) <> PExec /\ ~ In (WExecStart d) ls2 /\
  (tbl d = NSuccess \/ tbl d = NSkipped -> st (nd s1 d) = tbl d /\ att (nd s1 d) = 0).
Proof. exact retry_start_after_deps. Qed.
Print Assumptions C10_dependency_order.

(* At the end of a retry that was not stopped and did not time out, every step of the retried part carries the state
   C02 dictates from a fresh start (blocked => not executed and canceled/skipped; unmet precondition => skipped; otherwise
   run until its first success or limit+1 attempts), the kept steps counting as blockers / permitters with their
   recorded status. *)
Theorem C10_retried_part_is_scheduled : forall (c : cfg), norepeat c -> forall (tbl : nat -> nstatus) ls s i,
  tbl_consistent c tbl -> run c (init_from c tbl) ls = Some s -> quiet s -> pc s = LDone -> i < nsteps c ->
  tbl i <> NSuccess -> tbl i <> NSkipped -> final_clauses c s i.
Proof. exact retry_final_states. Qed.
Print Assumptions C10_retried_part_is_scheduled.
