(* C02 - failure and skip containment: final step states follow the DAG semantics.
   Model: Sched/Model.v.  Proofs: Sched/Step.v, Sched/Proofs.v, Sched/ProofsFinal.v (invariant I6 and the attempt histories; final_node: the five
   ways a node ends), Sched/ProofsDown.v (paths of blocked steps).  Tie to the code: tools/props/C02.py.
   An ATTEMPT is a Run of the step's command or a failed creation of that command (label WCreateFail: the attempt ends in
   error without a command having been started; att and outs count it as a failed attempt).
   Premise: norepeat c (no repeatPolicy step: a repeating step has no last attempt until a stop request - stopped runs
   are C04/C05 - and with continueOn.failure it is labelled failed while it keeps executing, see
   C15_repeating_step_refuted).  Since fix f9e55a3 no premise about the done channel is needed.
   Reading kept explicit: a *canceled* dependency blocks its dependents irrespective of continueOn.failure - that is
   what isReady does (scheduler.go:379-381) and what the property's local-consistency quantifier allows. *)
From Coq Require Import List.
Import ListNotations.
From BD.Sched Require Import Model Proofs ProofsFinal Examples ProofsDown.

(* For every configuration and every execution that reaches Done without stop request or timeout (quiet), for every
   step i, with  blocked i := some dependency ended failed without continueOn.failure, canceled, or skipped without
   continueOn.skipped (dep_mark <> None on the final table):
   - blocked:                      never executed; ends canceled or skipped, and a dependency of exactly that kind exists;
   - not blocked, precondition unmet:  never executed; ends skipped;
   - not blocked, precondition met, dry run:        nothing executed, ends finished;
   - not blocked, precondition met, set-up fails:   never executed, ends failed;
   - otherwise (runnable):  executed at least once; all attempts but the last failed; finished iff the last attempt
     succeeded; failed only with the retries exhausted (retryCount = limit). *)
Theorem C02_final_states : forall c : cfg, norepeat c ->
  forall s, Reach c s -> quiet s -> pc s = LDone -> forall i, i < nsteps c ->
  (blocked c s i = true ->
     att (nd s i) = 0 /\ ((st (nd s i) = NCancel /\ blocker c s i NCancel) \/
                          (st (nd s i) = NSkipped /\ blocker c s i NSkipped))) /\
  (blocked c s i = false -> pre (steps c i) = false -> att (nd s i) = 0 /\ st (nd s i) = NSkipped) /\
  (blocked c s i = false -> pre (steps c i) = true -> dry c = true -> att (nd s i) = 0 /\ st (nd s i) = NSuccess) /\
  (blocked c s i = false -> pre (steps c i) = true -> dry c = false -> sfail (steps c i) = true ->
     att (nd s i) = 0 /\ st (nd s i) = NError) /\
  (blocked c s i = false -> pre (steps c i) = true -> dry c = false -> sfail (steps c i) = false ->
     ran_to_end c s i).
Proof. exact final_states. Qed.
Print Assumptions C02_final_states.

(* "Steps not downstream of any such step always run to completion." *)
Theorem C02_unaffected_run : forall c : cfg, norepeat c ->
  forall s, Reach c s -> quiet s -> pc s = LDone -> forall i, i < nsteps c ->
  dry c = false -> sfail (steps c i) = false -> pre (steps c i) = true ->
  (forall d, In d (deps (steps c i)) -> dep_mark c s d = None) ->
  att (nd s i) >= 1 /\ (st (nd s i) = NSuccess \/ st (nd s i) = NError).
Proof.
  intros c Hn s Hr Hq Hpc i Hi Hdry Hsf Hpre Hnb.
  destruct (final_node_reach c Hn s Hr Hq Hpc i Hi) as [B _ _| | | |_ _ _ _ R]; try congruence.
  - apply blocked_iff in B. destruct B as (m & d & Hin & Hm). rewrite (Hnb d Hin) in Hm. discriminate.
  - now apply (ran_to_end_status c).
Qed.
Print Assumptions C02_unaffected_run.

(* Transitive form of "every step downstream of ...": a step reached along dependency edges from a blocking dependency
   (failed without continueOn.failure, canceled, or skipped without continueOn.skipped), through intermediate steps that
   do not carry continueOn.skipped, has not been executed at all and ends canceled or skipped - for paths of any length.
   tdown c s i := some dependency of i is blocking, or some dependency d of i is itself tdown and has no continueOn.skipped. *)
Theorem C02_transitive_downstream : forall c : cfg, norepeat c ->
  forall s, Reach c s -> quiet s -> pc s = LDone -> forall i, tdown c s i ->
  att (nd s i) = 0 /\ (st (nd s i) = NCancel \/ st (nd s i) = NSkipped).
Proof. exact transitive_downstream. Qed.
Print Assumptions C02_transitive_downstream.

(* Containment, the converse direction: nothing outside the downstream set is cut - a step ends canceled only if one of
   its dependencies is blocking, and ends skipped with its own precondition met only then. *)
Theorem C02_cut_only_downstream : forall c : cfg, norepeat c ->
  forall s, Reach c s -> quiet s -> pc s = LDone -> forall i, i < nsteps c ->
  (st (nd s i) = NCancel \/ (st (nd s i) = NSkipped /\ pre (steps c i) = true)) -> blocked c s i = true.
Proof. exact cut_only_downstream. Qed.
Print Assumptions C02_cut_only_downstream.

(* Non-vacuity.  (1) A run with every kind of outcome reaches Done quietly: a fails twice (limit 1) and blocks b
   (canceled); c's precondition is unmet (skipped) and without continueOn.skipped makes d skipped; e finishes.
   (2) The diamond run with one retry finishes everywhere.  Both satisfy every premise of the theorems. *)
Example C02_nonvacuous :
  ((donech mixed = true /\ norepeat mixed) /\
   exists s, run mixed (init mixed) mixed_full = Some s /\ pc s = LDone /\ quiet s /\ dry mixed = false /\
     map (fun i => (st (nd s i), rc (nd s i), att (nd s i))) [0; 1; 2; 3; 4] =
       [(NError, 1, 2); (NCancel, 0, 0); (NSkipped, 0, 0); (NSkipped, 0, 0); (NSuccess, 0, 1)] /\
     map (blocked mixed s) [0; 1; 2; 3; 4] = [false; true; false; true; false] /\
     map (runnable mixed s) [0; 1; 2; 3; 4] = [true; false; false; false; true] /\
     lasterr s = true).
Proof.
  split; [split; [reflexivity|eapply norepeat_steps; reflexivity]|].
  apply ex_run. vm_compute. repeat split; reflexivity.
Qed.

(* (3) a -> b -> c with a failing: c is downstream of a through two edges; premises of C02_transitive_downstream hold. *)
Example C02_transitive_nonvacuous :
  norepeat chain3 /\
  exists s, run chain3 (init chain3) chain3_full = Some s /\ pc s = LDone /\ quiet s /\
    tdown chain3 s 2 /\ blocked chain3 s 2 = true /\ dep_mark chain3 s 0 = Some NCancel /\
    map (fun i => (st (nd s i), att (nd s i))) [0; 1; 2] = [(NError, 1); (NCancel, 0); (NCancel, 0)].
Proof.
  split; [eapply norepeat_steps; reflexivity|]. apply ex_run. vm_compute. repeat split; try reflexivity.
  apply (td_step _ _ 2 1); [repeat constructor|now left| |reflexivity].
  apply (td_base _ _ 1 0); [repeat constructor|now left|discriminate].
Qed.
