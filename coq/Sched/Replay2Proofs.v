(* Soundness of the power-set acceptor (state level): every model state it ever holds is reachable by an execution of
   the model, so an accepted run of the real scheduler comes with a reachable Done state of the model that shows the
   observed final node table, handler states, Schedule error and Status - the theorems about all reachable states
   (C04, C05) apply to it.  (Dedupe only removes states, so its equality test needs no correctness proof.) *)
From Coq Require Import List Arith Bool ZArith PeanoNat.
Import ListNotations.
From BD.Sched Require Import Model Step Replay Replay2.

Section S2.
Variable c : cfg.
Variable ivl rivl : nat -> Z.
Variable eps tmo_at : Z.

Definition AllReach (ss : list state) : Prop := Forall (Reach c) ss.

Lemma step_opt_reach s l : Reach c s -> AllReach (match step c s l with Some s' => [s'] | None => [] end).
Proof. intros Hr. destruct (step c s l) eqn:Hs; repeat constructor. eapply reach_step; eauto. Qed.

Lemma apply_all_reach l ss : AllReach ss -> AllReach (apply_all c l ss).
Proof. intros H. apply Forall_flat_map. eapply Forall_impl; [|exact H]. intros s. apply step_opt_reach. Qed.

Lemma flat_succs_reach calls endt now ss : AllReach ss ->
  AllReach (flat_map (succs c ivl rivl eps tmo_at calls endt now) ss).
Proof.
  intros H. apply Forall_flat_map. eapply Forall_impl; [|exact H]. intros s Hr.
  apply Forall_flat_map, Forall_forall. intros l _. apply step_opt_reach, Hr.
Qed.

Lemma add_new_reach new : forall seen a b, add_new c new seen = (a, b) -> AllReach new -> AllReach seen ->
  AllReach a /\ AllReach b.
Proof.
  induction new as [|s r IH]; simpl; intros seen a b E Hn Hs; [injection E as <- <-; split; [constructor|exact Hs]|].
  inversion Hn; subst. destruct (mem c s seen); [eapply IH; eassumption|].
  destruct (add_new c r (s :: seen)) as [a' b'] eqn:E'. injection E as <- <-.
  destruct (IH _ _ _ E' ltac:(assumption) ltac:(constructor; assumption)) as [Ha Hb].
  split; [constructor; assumption|exact Hb].
Qed.

Lemma closure_reach fuel : forall calls endt now front seen res, AllReach front -> AllReach seen ->
  closure c ivl rivl eps tmo_at fuel calls endt now front seen = Some res -> AllReach res.
Proof.
  induction fuel as [|f IH]; intros calls endt now front seen res Hf Hs H.
  - destruct front; simpl in H; [injection H as <-; exact Hs|discriminate].
  - destruct front as [|x front]; [simpl in H; injection H as <-; exact Hs|].
    cbn [closure] in H.
    destruct (add_new c (flat_map (succs c ivl rivl eps tmo_at calls endt now) (x :: front)) seen) as [fresh seen'] eqn:E.
    destruct (add_new_reach _ _ _ _ E (flat_succs_reach calls endt now (x :: front) Hf) Hs) as [Ha Hb].
    eapply IH; [exact Ha|exact Hb|exact H].
Qed.

Lemma close_reach p now res : AllReach (pss p) -> close c ivl rivl eps tmo_at p now = Some res -> AllReach res.
Proof.
  intros Hp H. unfold close in H. destruct (add_new c (pss p) []) as [fresh seen] eqn:E.
  destruct (add_new_reach _ _ _ _ E Hp ltac:(constructor)) as [Ha Hb].
  eapply closure_reach; [exact Ha|exact Hb|exact H].
Qed.

Lemma filter_reach (f : state -> bool) ss : AllReach ss -> AllReach (filter f ss).
Proof. apply incl_Forall, incl_filter. Qed.

Lemma feed2_reach p e p' : AllReach (pss p) -> feed2 c ivl rivl eps tmo_at p e = Some p' -> AllReach (pss p').
Proof.
  intros Hp H. unfold feed2 in H.
  destruct (close c ivl rivl eps tmo_at p (ev2_time e)) as [ss|] eqn:Ec; [|discriminate].
  pose proof (close_reach p _ ss Hp Ec) as Hss.
  assert (Hmk : forall ss' q, AllReach ss' ->
            match ss' with [] => None | _ => Some {| pss := ss'; pendt := pendt p; pcalls := pcalls p |} end = Some q ->
            AllReach (pss q)).
  { intros ss' q Hr Hq. destruct ss'; [discriminate|]. injection Hq as <-. exact Hr. }
  destruct e; try (eapply Hmk; [|exact H]; auto using apply_all_reach, filter_reach).
  - destruct (apply_all c (WExecEnd i ok) ss) eqn:Ea; [discriminate|]. injection H as <-. cbn [pss].
    rewrite <- Ea. apply apply_all_reach. exact Hss.
  - destruct (apply_all c (WExecRefused i) ss ++ apply_all c (WCreateFail i) ss) eqn:Ea; [discriminate|].
    injection H as <-. cbn [pss]. rewrite <- Ea. apply Forall_app. split; apply apply_all_reach; exact Hss.
  - injection H as <-. exact Hss.
Qed.

Lemma feed2_all_reach es : forall p idx p' o, AllReach (pss p) ->
  feed2_all c ivl rivl eps tmo_at p es idx = (p', o) -> AllReach (pss p').
Proof.
  induction es as [|e es IH]; simpl; intros p idx p' o Hp H; [injection H as <- _; exact Hp|].
  destruct (feed2 c ivl rivl eps tmo_at p e) as [p1|] eqn:Ef.
  - eapply IH; [eapply feed2_reach; eauto|exact H].
  - injection H as <- _. exact Hp.
Qed.

Variable fin : nat -> nat * nat.
Variable hfin : handler -> nat.

Theorem replay2_sound tr err status k :
  replay2 c ivl rivl eps tmo_at fin hfin tr err status = (0, 0, k) ->
  exists s, Reach c s /\ final2_ok c fin hfin s err status = true.
Proof.
  unfold replay2. intros H.
  destruct (feed2_all c ivl rivl eps tmo_at (p_init c) tr 0) as [p o] eqn:Ef.
  assert (Hp : AllReach (pss p)).
  { eapply feed2_all_reach; [|exact Ef]. constructor; [exists []; reflexivity|constructor]. }
  destruct o; [discriminate|].
  destruct (close c ivl rivl eps tmo_at p big) as [ss|] eqn:Ec; [|discriminate].
  pose proof (close_reach p _ ss Hp Ec) as Hss.
  destruct (existsb (fun s => final2_ok c fin hfin s err status) ss) eqn:Ee; [|discriminate].
  apply existsb_exists in Ee. destruct Ee as (s & Hin & Hok). exists s. split; [|exact Hok].
  unfold AllReach in Hss. rewrite Forall_forall in Hss. exact (Hss s Hin).
Qed.

End S2.
