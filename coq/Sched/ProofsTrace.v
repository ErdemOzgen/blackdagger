(* The C15 monitor (high-water mark of open Run calls) and the C01 order of Run entries hold on the visible projection
   of EVERY execution: the link between the state invariants and what the harness can observe. *)
From Coq Require Import List Arith Bool Lia PeanoNat Permutation.
Import ListNotations.
From BD.Sched Require Import Model Proofs Replay ReplayProofs.

(* the untimed part of Check.mon15_go: never more than k Run calls open *)
Fixpoint mon_open (k : nat) (opn : list nat) (tr : list vevent) : bool :=
  match tr with
  | [] => true
  | VStart i :: t => (length opn + 1 <=? k) && mon_open k (i :: opn) t
  | VEnd i _ :: t => mon_open k (remove Nat.eq_dec i opn) t
  end.

Section Trace.
Variable c : cfg.
Hypothesis Hnorep : norepeat c.
Notation n := (nsteps c).

(* the test inside Proofs.exec_count *)
Definition is_exec (x : node) : bool := match ph x with PExec => true | _ => false end.

Definition Opn (s : state) (opn : list nat) : Prop :=
  NoDup opn /\ forall i, In i opn <-> (i < n /\ is_exec (nd s i) = true).

Lemma opn_length s opn : Opn s opn -> length opn = exec_count c s.
Proof.
  intros [Hnd Hin]. unfold exec_count.
  apply Permutation_length. apply NoDup_Permutation; [exact Hnd|apply NoDup_filter, seq_NoDup|].
  intros i. rewrite Hin, filter_In, in_seq. unfold is_exec.
  split; intros [H1 H2]; (split; [lia|exact H2]).
Qed.

Lemma hidden_keeps_exec s l s' : Inv c s -> step c s l = Some s' -> vis_of l = None ->
  forall j, is_exec (nd s' j) = is_exec (nd s j).
Proof.
  intros HI Hs Hv j. unfold is_exec. destruct (step_node c _ _ _ Hs j) as [->|(e & T & _)]; [reflexivity|].
  destruct T; try discriminate Hv; nsimpl; try reflexivity;
    try (match goal with H : ph _ = _ |- _ => now rewrite H end).
  - (* LLaunch: the node was idle *) destruct (committed_idle c _ _ HI H) as (_ & _ & ->). reflexivity.
  - rewrite H. destruct (after_nd_shape c s j ok early) as (Hp & _). unfold post_phase in Hp.
    destruct Hp as [-> |[-> |[-> | ->]]]; reflexivity.
Qed.

Lemma start_exec s i s' : step c s (WExecStart i) = Some s' ->
  i < n /\ is_exec (nd s i) = false /\ forall j, is_exec (nd s' j) = if j =? i then true else is_exec (nd s j).
Proof.
  intros Hs. apply exec_start_iff in Hs. destruct Hs as (E & Hi & _ & _ & _ & ->).
  split; [exact Hi|]. split; [unfold is_exec; now rewrite E|].
  intros j. unfold set_nd, upd, is_exec. cbn [nd]. destruct (j =? i); reflexivity.
Qed.

Lemma end_exec s i ok s' : step c s (WExecEnd i ok) = Some s' ->
  forall j, is_exec (nd s' j) = if j =? i then false else is_exec (nd s j).
Proof.
  cbn [step]. destruct (ph (nd s i)) eqn:E; try discriminate.
  destruct (i <? n) eqn:G; [|discriminate]. intros H. injection H as <-.
  intros j. unfold set_nd, upd, is_exec. cbn [nd]. destruct (j =? i); reflexivity.
Qed.

Lemma in_remove_iff (i j : nat) l : In j (remove Nat.eq_dec i l) <-> In j l /\ j <> i.
Proof. split; [apply in_remove|]. intros [H1 H2]. apply in_in_remove; assumption. Qed.

Lemma NoDup_remove' (i : nat) l : NoDup l -> NoDup (remove Nat.eq_dec i l).
Proof. rewrite <- remove_alt. apply NoDup_filter. Qed.

Fixpoint opn_after (opn : list nat) (tr : list vevent) : list nat :=
  match tr with
  | [] => opn
  | VStart i :: t => opn_after (i :: opn) t
  | VEnd i _ :: t => opn_after (remove Nat.eq_dec i opn) t
  end.

Lemma opn_step s opn l s' : Inv c s -> Opn s opn -> step c s l = Some s' -> Opn s' (opn_after opn (vis [l])).
Proof.
  intros HI [Hnd Hin] Hs. cbn [vis]. destruct (vis_of l) as [v|] eqn:Hv.
  - destruct l; try discriminate Hv; injection Hv as <-; cbn [opn_after].
    + destruct (start_exec _ _ _ Hs) as (Hi & Hne & Hnew). split.
      * constructor; [|exact Hnd]. intros Hc0. apply Hin in Hc0. destruct Hc0 as [_ Hc0]. congruence.
      * intros j. rewrite Hnew. simpl. rewrite Hin. destruct (Nat.eqb_spec j i) as [->|Hne']; intuition congruence.
    + pose proof (end_exec _ _ _ _ Hs) as Hnew. split; [apply NoDup_remove'; exact Hnd|].
      intros j. rewrite in_remove_iff, Hnew, Hin. destruct (Nat.eqb_spec j i) as [->|Hne']; intuition congruence.
  - split; [exact Hnd|]. intros j. rewrite (hidden_keeps_exec _ _ _ HI Hs Hv j). apply Hin.
Qed.

Lemma opn_after_cons opn l ls : opn_after opn (vis (l :: ls)) = opn_after (opn_after opn (vis [l])) (vis ls).
Proof. cbn [vis]. destruct (vis_of l) as [[i|i ok]|]; reflexivity. Qed.

Lemma opn_after_run s opn ls s' : Inv c s -> Opn s opn -> run c s ls = Some s' -> Opn s' (opn_after opn (vis ls)).
Proof.
  revert s opn. induction ls as [|l ls IH]; intros s opn HI Ho Hrun.
  - simpl in Hrun. injection Hrun as <-. exact Ho.
  - simpl in Hrun. destruct (step c s l) as [s1|] eqn:Hs; [|discriminate].
    rewrite opn_after_cons. exact (IH s1 _ (inv_step c Hnorep _ _ _ HI Hs) (opn_step _ _ _ _ HI Ho Hs) Hrun).
Qed.

Theorem mon_open_holds_from s opn ls s' : Reach c s -> maxActive c > 0 -> Opn s opn ->
  run c s ls = Some s' -> mon_open (maxActive c) opn (vis ls) = true.
Proof.
  intros Hr Hk. revert s opn Hr. induction ls as [|l ls IH]; intros s opn Hr Ho Hrun; [reflexivity|].
  simpl in Hrun. destruct (step c s l) as [s1|] eqn:Hs; [|discriminate].
  pose proof (reach_step c _ _ _ Hr Hs) as Hr1. pose proof (opn_step _ _ _ _ (reach_inv c Hnorep s Hr) Ho Hs) as Ho1.
  specialize (IH s1 _ Hr1 Ho1 Hrun). cbn [vis] in *.
  destruct (vis_of l) as [[i|i ok]|]; cbn [mon_open opn_after] in *; auto.
  (* a command starts: the open calls are the executing commands, bounded by C15 *)
  apply andb_true_iff. split; [|exact IH]. apply Nat.leb_le.
  pose proof (opn_length _ _ Ho1) as Hlen. simpl in Hlen.
  destruct (C15_bound_all c Hnorep s1 Hr1 Hk) as (_ & _ & _ & Hex). lia.
Qed.

Lemma opn_init : Opn (init c) [].
Proof. split; [constructor|]. intros i. split; [intros []|]. intros [_ H]. cbn in H. discriminate. Qed.

(* C15 on the visible trace of every execution *)
Theorem mon_open_holds ls s : maxActive c > 0 -> run c (init c) ls = Some s ->
  mon_open (maxActive c) [] (vis ls) = true.
Proof. intros Hk Hrun. apply (mon_open_holds_from (init c) [] ls s); auto using opn_init. exists []. reflexivity. Qed.

Lemma vis_start_in d ls : In (VStart d) (vis ls) -> In (WExecStart d) ls.
Proof.
  induction ls as [|l ls IH]; simpl; [tauto|].
  destruct (vis_of l) eqn:Hv.
  - intros [H|H]; [|right; auto]. left. destruct l; try discriminate Hv; injection Hv as Hv; subst v; try discriminate H.
    injection H as H. subst. reflexivity.
  - intros H. right. auto.
Qed.

(* C01 on the visible trace of every execution: when step i's Run is entered, no dependency has an open Run, and
   none is entered again later *)
Theorem C01_trace ls1 i ls2 s : run c (init c) (ls1 ++ WExecStart i :: ls2) = Some s ->
  forall d, In d (deps (steps c i)) ->
    ~ In d (opn_after [] (vis ls1)) /\ ~ In (VStart d) (vis ls2).
Proof.
  intros Hrun d Hd. rewrite run_app in Hrun. destruct (run c (init c) ls1) as [s1|] eqn:H1; [|discriminate].
  cbn [run] in Hrun. destruct (step c s1 (WExecStart i)) as [s2|] eqn:H2; [|discriminate].
  destruct (C01_execution c Hnorep ls1 i ls2 s1 s2 s H1 H2 Hrun d Hd) as (_ & _ & Hne & Hnever).
  split.
  - intros Hin. apply (opn_after_run (init c) [] ls1 s1 (inv_init c) opn_init H1) in Hin. destruct Hin as [_ Hin].
    unfold is_exec in Hin. destruct (ph (nd s1 d)); try discriminate. congruence.
  - intros Hin. apply Hnever. apply vis_start_in. exact Hin.
Qed.

End Trace.
