(* Sched: the inductive invariant of the step scheduler model and its safety corollaries
   (C15_bound, C01_start_after_deps, C03_attempt_bounds).  DESIGN.md Appendix A.2, conjuncts I1-I4.

   Standing hypothesis of the section Pres, a premise of the lemmas whose proofs use it (the step lemmas that look at
   the worker's error switch, and everything built on inv_step):
     Hnorep : no step has a repeatPolicy (the properties C01 C02 C03 C15 quantify over retryPolicy, continueOn,
                                      preconditions, maxActiveRuns; repeating steps belong to C05) *)
From Coq Require Import List Arith Bool Lia PeanoNat.
Import ListNotations.
From BD.Sched Require Import Model.
From BD.Sched Require Export Step.

Definition norepeat (c : cfg) : Prop := forall i, repeat (steps c i) = false.

(* a configuration built from a list of steps none of which repeats *)
Lemma norepeat_steps c l : steps c = (fun i => nth i l dflt_step) -> forallb (fun x => negb (repeat x)) l = true -> norepeat c.
Proof.
  intros E H i. rewrite E. destruct (Nat.lt_ge_cases i (length l)) as [Hi|Hi].
  - rewrite forallb_forall in H. specialize (H (nth i l dflt_step) (nth_In _ _ Hi)).
    destruct (repeat (nth i l dflt_step)); [discriminate|reflexivity].
  - rewrite nth_overflow by exact Hi. reflexivity.
Qed.

Definition b2n (b : bool) : nat := if b then 1 else 0.
Lemma count_ext (P Q : nat -> bool) l : (forall j, In j l -> P j = Q j) ->
  length (filter P l) = length (filter Q l).
Proof. intros H. f_equal. now apply filter_ext_in. Qed.

(* a sum over a duplicate-free list when the summand changes at one index; counting is summing b2n *)
Lemma list_sum_upd (f g : nat -> nat) i l : NoDup l -> In i l -> (forall j, j <> i -> f j = g j) ->
  list_sum (map g l) + f i = list_sum (map f l) + g i.
Proof.
  intros Hnd Hin Hne. induction l as [|a l IH]; [inversion Hin|].
  inversion Hnd as [|? ? Ha Hnd']; subst. simpl.
  destruct (Nat.eq_dec a i) as [->|Hai].
  - rewrite (map_ext_in f g l); [lia|]. intros j Hj. apply Hne. intros ->. contradiction.
  - destruct Hin as [?|Hin]; [congruence|]. specialize (IH Hnd' Hin). rewrite (Hne a Hai). lia.
Qed.

Lemma length_filter_sum (P : nat -> bool) l : length (filter P l) = list_sum (map (fun j => b2n (P j)) l).
Proof. induction l as [|a l IH]; [reflexivity|]. simpl. destruct (P a); simpl; lia. Qed.

Lemma count_upd_in (P Q : nat -> bool) i l : NoDup l -> In i l -> (forall j, j <> i -> P j = Q j) ->
  length (filter Q l) + b2n (P i) = length (filter P l) + b2n (Q i).
Proof.
  intros Hnd Hin Hne. rewrite !length_filter_sum.
  apply (list_sum_upd (fun j => b2n (P j)) (fun j => b2n (Q j))); auto. intros j Hj. now rewrite Hne.
Qed.

Lemma filter_le (P Q : nat -> bool) l : (forall j, P j = true -> Q j = true) ->
  length (filter P l) <= length (filter Q l).
Proof.
  intros H. induction l as [|a l IH]; simpl; auto.
  destruct (P a) eqn:Hp.
  - rewrite (H a Hp). simpl. lia.
  - destruct (Q a); simpl; lia.
Qed.

Section Inv.
Variable c : cfg.
Notation n := (nsteps c).

(* worker phase versus node status (I1 of DESIGN.md A.2; field iA of Inv) *)
Definition coherent (x : node) : Prop :=
  match ph x with
  | PIdle => st x = NNone \/ st x = NCancel \/ st x = NSkipped
  | PSetup | PStarting | PExec | PEnded _ | PRetryWait => st x = NRunning \/ st x = NCancel
  | PRepeatWait => False
  | PPost => st x = NRunning \/ st x = NCancel \/ st x = NError
  | PGone => st x = NSuccess \/ st x = NCancel \/ st x = NError \/ st x = NRunning
  end.

(* attempts versus retry count (I3; field iD) *)
Definition counts (s : state) (i : nat) : Prop :=
  let x := nd s i in
  rc x <= rlimit (steps c i) /\
  match ph x with
  | PIdle | PSetup | PStarting | PRetryWait => att x = rc x
  | PExec => att x = S (rc x)
  | PEnded ok => att x = S (rc x) \/ (att x = rc x /\ (if ok then dry c = true else timedout s = true))
  | PPost | PGone => rc x <= att x <= S (rc x)
  | PRepeatWait => True
  end.

(* a dependency that lets its dependents proceed *)
Definition okterm (s : state) (d : nat) : Prop :=
  st (nd s d) = NSuccess \/ (st (nd s d) = NError /\ cof (steps c d) = true)
  \/ (st (nd s d) = NSkipped /\ cos (steps c d) = true).

Definition launched (s : state) (i : nat) : Prop :=
  ph (nd s i) <> PIdle \/ att (nd s i) > 0 \/ pc s = LCommitted i.

Definition active_count (s : state) : nat :=
  length (filter (fun j => active (ph (nd s j))) (seq 0 n)).
Definition committed_n (s : state) : nat := match pc s with LCommitted _ => 1 | _ => 0 end.

(* the invariant of the step scheduler.  iA: phase and status agree (I1); iB: the node the loop has committed is a
   step, not started; iC: a launched node's dependencies all permit it (I2); iD: attempts and retry count (I3);
   iF: a Signal pass is pending only once the stop flag is set; iG: unless the run is being stopped a node whose
   worker is under way is running (second half of I4); iS: the stale count is never used; iE: capacity (I4) *)
Record Inv (s : state) : Prop := {
  iA : forall i, coherent (nd s i);
  iB : forall i, pc s = LCommitted i -> i < n /\ st (nd s i) = NNone;
  iC : forall i, launched s i -> forall d, In d (deps (steps c i)) -> okterm s d;
  iD : forall i, counts s i;
  iF : sigq s <> [] -> canceled s = true;
  iG : canceled s = false -> forall i, active (ph (nd s i)) = true -> st (nd s i) = NRunning;
  iS : forall i, stale (nd s i) = 0;
  iE : maxActive c > 0 -> active_count s + committed_n s <= maxActive c
}.

Lemma dep_ok_okterm s d : dep_ok c s d = true <-> okterm s d.
Proof.
  unfold dep_ok, okterm. destruct (st (nd s d)); split; intros H;
  try discriminate; try tauto;
  try (destruct H as [H|[[H ?]|[H ?]]]; try discriminate; auto).
Qed.

Lemma dep_mark_values s d m : dep_mark c s d = Some m -> m = NCancel \/ m = NSkipped.
Proof.
  unfold dep_mark. destruct (st (nd s d)); try discriminate;
  try destruct (cof (steps c d)); try destruct (cos (steps c d)); intros H; try discriminate; injection H as <-; auto.
Qed.

Lemma coherent_none_idle x : coherent x -> st x = NNone -> ph x = PIdle.
Proof. unfold coherent. destruct (ph x); intuition congruence. Qed.

End Inv.

Section Pres.
Variable c : cfg.
Hypothesis Hnorep : norepeat c.
Notation n := (nsteps c).
Notation step := (step c).
Notation Inv := (Inv c).
Notation okterm := (okterm c).

Lemma committed_idle s i : Inv s -> pc s = LCommitted i -> i < n /\ st (nd s i) = NNone /\ ph (nd s i) = PIdle.
Proof.
  intros HI Hp. destruct (iB _ _ HI i Hp) as [Hi Hst]. repeat split; auto.
  exact (coherent_none_idle _ (iA _ _ HI i) Hst).
Qed.

(* a Signal pass is under way only when the stop flag is set *)
Lemma signal_flag s i : Inv s -> hd_error (sigq s) = Some i -> canceled s = true.
Proof. intros HI H. apply (iF _ _ HI). intros E. now rewrite E in H. Qed.

(* a node with a final status and no worker under way: the only label left for it is its worker's return *)
Lemma settled_moves s i l x' e : Inv s -> nstep c s i l x' e ->
  terminal (st (nd s i)) = true -> active (ph (nd s i)) = false ->
  ph (nd s i) = PPost /\ ph x' = PGone /\ st x' = st (nd s i) /\ e = ENone.
Proof.
  intros HI T Ht Ha.
  destruct T; try (rewrite H in Ha; discriminate Ha); try (rewrite H1 in Ht; discriminate Ht);
    try (destruct (committed_idle _ _ HI H) as (_ & E & _); rewrite E in Ht; discriminate Ht).
  nsimpl. repeat split; auto. destruct (st (nd s i)); auto; discriminate.
Qed.

(* a dependency that permits its dependents has a final status and no worker left *)
Lemma okterm_no_worker s d : Inv s -> okterm s d -> terminal (st (nd s d)) = true /\ active (ph (nd s d)) = false.
Proof.
  intros HI Hok. pose proof (iA _ _ HI d) as Hc. unfold coherent in Hc.
  destruct Hok as [H|[[H _]|[H _]]]; rewrite H in *; split; auto; destruct (ph (nd s d)); simpl; intuition congruence.
Qed.

Lemma step_okterm_stable s l s' : Inv s -> step s l = Some s' -> forall d, okterm s d -> okterm s' d.
Proof.
  intros HI Hs d Hd. destruct (okterm_no_worker s d HI Hd) as [Ht Ha]. unfold Proofs.okterm in *.
  destruct (step_node c _ _ _ Hs d) as [->|(e & T & _)]; [exact Hd|].
  destruct (settled_moves s d l _ e HI T Ht Ha) as (_ & _ & E & _). now rewrite E.
Qed.

Lemma step_coherent s l s' : Inv s -> step s l = Some s' -> forall j, coherent (nd s' j).
Proof.
  intros HI Hs j. pose proof (iA _ _ HI j) as HA.
  destruct (step_node c _ _ _ Hs j) as [->|(e & T & _)]; [exact HA|].
  unfold coherent in *. destruct T; phase_in HA; nsimpl; auto.
  - (* LMark *) apply dep_mark_values in H3. rewrite H1 in HA. destruct (ph (nd s j)); intuition congruence.
  - (* LSkipPre *) destruct (committed_idle _ _ HI H) as (_ & _ & ->). auto.
  - (* WSkipExec *) destruct HA as [->| ->]; auto.
  - (* WAfter *)
    destruct (after_cases c s j ok early (Hnorep j)); try destruct (fphase_cases c) as [-> | ->]; nsimpl; intuition.
  - (* WRepeatWake *) contradiction.
  - (* WFinish *) destruct HA as [->|[->| ->]]; auto.
  - (* Signal *) rewrite H1 in HA. destruct (ph (nd s j)); intuition congruence.
Qed.

Lemma step_committed s l s' : Inv s -> step s l = Some s' ->
  forall k, pc s' = LCommitted k -> k < n /\ st (nd s' k) = NNone.
Proof.
  intros HI Hs k Hk.
  destruct (step_Step c _ _ _ Hs) as [l i x' e T|i| | | | | | | | | | ]; cbn in Hk; try discriminate Hk;
    try (apply (iB _ _ HI); exact Hk).
  - assert (Hp : pc s = LCommitted k) by (destruct e; cbn in Hk; try discriminate; exact Hk).
    destruct (committed_idle _ _ HI Hp) as (Hkn & Hst & Hph). split; [exact Hkn|].
    rewrite nd_apply_eff, nd_set_nd. destruct (Nat.eqb_spec k i) as [->|]; [exfalso|exact Hst].
    (* the committed node is moved by LLaunch / LSkipPre only, and they hand the loop back *)
    destruct T; cbn in Hk; congruence.
  - injection Hk as <-. auto.
Qed.

Lemma step_counts s l s' : Inv s -> step s l = Some s' -> forall j, counts c s' j.
Proof.
  intros HI Hs j. pose proof (iD _ _ HI j) as HD. pose proof (iA _ _ HI j) as HA. unfold counts, coherent in *.
  destruct (step_node c _ _ _ Hs j) as [->|(e & T & Es)].
  - (* only the deadline flag matters to an untouched node, and it does not go back *)
    destruct HD as [H1 H2]. split; [exact H1|]. destruct (ph (nd s j)); auto. destruct ok; auto.
    destruct H2 as [H2|[H2 H3]]; auto. right. split; auto. now apply (step_flags c _ _ _ Hs).
  - destruct (moved_state _ _ _ _ _ Es) as (-> & _).
    destruct T; phase_in HD; phase_in HA; nsimpl; try (intuition lia).
    + destruct (committed_idle _ _ HI H) as (_ & _ & E). rewrite E in HD. exact HD.
    + (* WAfter *)
      destruct (after_cases c s j ok early (Hnorep j)); try destruct (fphase_cases c) as [-> | ->]; nsimpl; intuition (lia || congruence).
Qed.

Lemma step_sigq s l s' : Inv s -> step s l = Some s' -> sigq s' <> [] -> canceled s' = true.
Proof.
  intros HI Hs Hq. pose proof (iF _ _ HI) as HF.
  destruct (step_Step c _ _ _ Hs) as [l i x' e T| | | | | | | | | | | ]; try destruct e; cbn in *; auto.
  all: apply HF; intros E; rewrite E in Hq; now apply Hq.
Qed.

Lemma step_stale s l s' : Inv s -> step s l = Some s' -> forall j, stale (nd s' j) = 0.
Proof.
  intros HI Hs j. pose proof (iS _ _ HI j) as HS.
  destruct (step_node c _ _ _ Hs j) as [->|(e & T & _)]; [exact HS|].
  destruct T; nsimpl; auto. now rewrite (proj2 (proj2 (proj2 (proj2 (after_nd_shape c s j ok early))))).
Qed.

Lemma step_active_running s l s' : Inv s -> step s l = Some s' ->
  canceled s' = false -> forall j, active (ph (nd s' j)) = true -> st (nd s' j) = NRunning.
Proof.
  intros HI Hs Hc' j Hact.
  assert (Hc : canceled s = false).
  { destruct (canceled s) eqn:E; [|reflexivity]. now rewrite (proj1 (step_flags c _ _ _ Hs) E) in Hc'. }
  pose proof (iG _ _ HI Hc j) as HG.
  destruct (step_node c _ _ _ Hs j) as [E|(e & T & _)]; [rewrite E in *; auto|].
  destruct T; nsimpl; try discriminate Hact; try reflexivity;
    try (apply HG; match goal with H : ph _ = _ |- _ => now rewrite H end).
  - (* LMark *) rewrite (HG Hact) in H1. discriminate.
  - (* LSkipPre *) destruct (committed_idle _ _ HI H) as (_ & _ & E). now rewrite E in Hact.
  - (* WAfter *) assert (Hrun : st (nd s j) = NRunning) by (apply HG; now rewrite H).
    destruct (after_cases c s j ok early (Hnorep j)) as [| [X|X] | ? [X|X] | | ]; try congruence;
      try destruct (fphase_cases c) as [E | E]; try rewrite E in *; nsimpl; try discriminate Hact; congruence.
  - (* Signal: the run is being stopped *) rewrite (signal_flag _ _ HI H) in Hc. discriminate.
Qed.

(* a node that looks launched was launched before, or has just passed the readiness gate *)
Lemma step_launched s l s' : Inv s -> step s l = Some s' -> forall j, launched s' j ->
  launched s j \/ (forall d, In d (deps (steps c j)) -> okterm s d).
Proof.
  intros HI Hs j. unfold launched.
  destruct (step_node c _ _ _ Hs j) as [E|(e & T & Es)].
  - rewrite E. intros [Hl|[Hl|Hl]]; auto.
    destruct (step_Step c _ _ _ Hs) as [l i x' e T|i| | | | | | | | | | ]; cbn in Hl; try discriminate Hl; auto.
    + left. right. right. destruct e; cbn in Hl; try discriminate; exact Hl.
    + injection Hl as <-. right. intros d Hd. apply (proj1 (dep_ok_okterm c s d)).
      unfold ready in *. rewrite forallb_forall in *. auto.
  - intros Hl. left.
    assert (Hp : pc s' = LCommitted j -> pc s = LCommitted j) by (rewrite Es; destruct e; cbn; congruence).
    remember (nd s' j) as x' eqn:Ex. clear Es Ex.
    destruct T; nsimpl; auto; try (left; match goal with H : ph _ = _ |- _ => rewrite H; discriminate end);
      destruct Hl as [Hl|[Hl|Hl]]; auto.
Qed.

Lemma step_deps s l s' : Inv s -> step s l = Some s' ->
  forall j, launched s' j -> forall d, In d (deps (steps c j)) -> okterm s' d.
Proof.
  intros HI Hs j Hl d Hd. eapply step_okterm_stable; eauto.
  destruct (step_launched s l s' HI Hs j Hl) as [Hold|Hnew]; [|auto].
  eapply (iC _ _ HI); eauto.
Qed.

(* capacity: the nodes of the table that satisfy f.  active_count, Model.running_count, and exec_count, retrywait_count
   below are `count f` by definition (f = active o ph, is_running, the phase tests). *)
Definition count (f : node -> bool) (s : state) : nat := length (filter (fun j => f (nd s j)) (seq 0 n)).

Lemma count_eff f e s : count f (apply_eff e s) = count f s.
Proof. unfold count. now rewrite nd_apply_eff. Qed.

Lemma count_set_nd f s i x : i < n -> count f (set_nd s i x) + b2n (f (nd s i)) = count f s + b2n (f x).
Proof.
  intros Hi. unfold count.
  pose proof (count_upd_in (fun j => f (nd s j)) (fun j => f (nd (set_nd s i x) j)) i (seq 0 n) (seq_NoDup _ _)) as H.
  cbv beta in H. rewrite nd_set_same in H. apply H; [apply in_seq; lia|].
  intros j Hne. rewrite nd_set_nd. apply Nat.eqb_neq in Hne. now rewrite Hne.
Qed.

Lemma count_set_nd_le f s i x : (f x = true -> f (nd s i) = true) -> count f (set_nd s i x) <= count f s.
Proof.
  intros Himp. destruct (Nat.lt_ge_cases i n) as [Hi|Hi].
  - pose proof (count_set_nd f s i x Hi) as Hu. destruct (f x); [rewrite Himp in Hu by reflexivity|];
      try destruct (f (nd s i)); cbn [b2n] in Hu; lia.
  - apply Nat.eq_le_incl, count_ext. intros j Hj. apply in_seq in Hj. rewrite nd_set_nd.
    destruct (Nat.eqb_spec j i); [lia|reflexivity].
Qed.

Lemma count_none f s : (forall j, j < n -> f (nd s j) = false) -> count f s = 0.
Proof.
  intros H. unfold count. rewrite (count_ext _ (fun _ => false)); [induction (seq 0 n); auto|].
  intros j Hj. apply in_seq in Hj. apply H. lia.
Qed.

(* only LLaunch makes a node active, or running *)
Lemma only_launch_activates s i l x' e : nstep c s i l x' e -> l <> LLaunch i ->
  (active (ph x') = true -> active (ph (nd s i)) = true) /\ (is_running x' = true -> is_running (nd s i) = true).
Proof.
  unfold is_running. intros T Hl.
  destruct T; nsimpl; try (now split); try (split; [try discriminate; intros _; now rewrite H|auto; try discriminate]).
  - (* LMark *) apply dep_mark_values in H3. destruct H3; subst; now split.
  - (* WSkipExec *) destruct (st (nd s i)); auto.
  - (* WAfter *) intros E. apply nstatus_eqb_eq in E. apply nstatus_eqb_eq. now apply (after_nd_shape c s i ok early).
  - (* WFinish *) destruct (st (nd s i)); auto.
Qed.

(* the capacity test bounds whatever is counted, provided it is only counted between launch and the node's end *)
Lemma step_cap (f : node -> bool) s l s' : Inv s -> step s l = Some s' -> maxActive c > 0 ->
  (forall i x' e, nstep c s i l x' e -> l <> LLaunch i -> f x' = true -> f (nd s i) = true) ->
  (canceled s = false -> count f s <= running_count c s) ->
  count f s + committed_n s <= maxActive c -> count f s' + committed_n s' <= maxActive c.
Proof.
  intros HI Hs Hk Hf Hrun HE. unfold committed_n in *.
  destruct (step_Step c _ _ _ Hs) as [l i x' e T|i Hi Hp Hst Hr Hc Hcap| | | | | | | | | | ];
    repeat match goal with H : pc s = _ |- _ => rewrite H in HE end; cbn [pc set_pc set_hst]; try exact HE;
    try (change (count f s + 0 <= maxActive c); lia).
  - rewrite count_eff.
    assert (Hle : l <> LLaunch i -> count f (set_nd s i x') <= count f s) by (intros Hl; apply count_set_nd_le; eauto).
    destruct T; try (specialize (Hle ltac:(discriminate)); try destruct (after_err c s i ok early);
                     cbn [apply_eff pc set_pc set_nd set_err]; lia).
    (* LLaunch: the slot reserved by LCommit is taken *)
    destruct (committed_idle _ _ HI H) as (Hi & _). rewrite H in HE.
    pose proof (count_set_nd f s i (with_ph (with_st (nd s i) NRunning) PSetup) Hi) as Hu.
    cbn [apply_eff pc set_pc]. destruct (f (nd s i)), (f (with_ph (with_st (nd s i) NRunning) PSetup)); cbn [b2n] in Hu; lia.
  - (* LCommit *) specialize (Hrun Hc). change (count f s + 1 <= maxActive c). lia.
Qed.

Lemma step_capacity s l s' : Inv s -> step s l = Some s' ->
  maxActive c > 0 -> active_count c s' + committed_n s' <= maxActive c.
Proof.
  intros HI Hs Hk. apply (step_cap (fun x => active (ph x)) s l s' HI Hs Hk).
  - intros i x' e T Hl. now apply (only_launch_activates s i l x' e T Hl).
  - intros Hc. apply filter_le. intros j Hj. unfold is_running. apply nstatus_eqb_eq. now apply (iG _ _ HI Hc).
  - exact (iE _ _ HI Hk).
Qed.

Theorem inv_step s l s' : Inv s -> step s l = Some s' -> Inv s'.
Proof.
  intros HI Hs. constructor.
  - eapply step_coherent; eauto.
  - eapply step_committed; eauto.
  - eapply step_deps; eauto.
  - eapply step_counts; eauto.
  - eapply step_sigq; eauto.
  - eapply step_active_running; eauto.
  - eapply step_stale; eauto.
  - eapply step_capacity; eauto.
Qed.

Lemma inv_init : Inv (init c).
Proof.
  constructor; cbn [init nd pc canceled sigq lasterr].
  - intros i. unfold coherent. cbn. auto.
  - intros i H. discriminate H.
  - intros i Hl. exfalso. unfold launched in Hl. cbn [init nd pc ph att init_node] in Hl.
    destruct Hl as [Hl|Hl]; [congruence|]. destruct Hl as [Hl|Hl]; [lia|discriminate].
  - intros i. unfold counts. cbn. lia.
  - intros H. congruence.
  - intros _ i H. cbn in H. discriminate.
  - reflexivity.
  - intros _. change (active_count c) with (count (fun x => active (ph x))). rewrite count_none by reflexivity. cbn. lia.
Qed.

Lemma run_inv s ls s' : Inv s -> run c s ls = Some s' -> Inv s'.
Proof. apply (run_preserves c Inv inv_step). Qed.

Theorem reach_inv s : Reach c s -> Inv s.
Proof. apply (reach_preserves c Inv inv_init inv_step). Qed.

(* a further invariant X, preserved where Inv holds *)
Lemma reach_with_inv (X : state -> Prop) : X (init c) -> (forall s l s', Inv s -> X s -> step s l = Some s' -> X s') ->
  forall s, Reach c s -> Inv s /\ X s.
Proof.
  intros X0 Xstep. apply (reach_preserves c (fun s => Inv s /\ X s)); [split; [apply inv_init|exact X0]|].
  intros s l s' [A B] Hs. split; [eapply inv_step|eapply Xstep]; eauto.
Qed.

(* C15: never more than maxActive workers between launch and the end of the retry interval *)
Corollary C15_bound_active s : Reach c s -> maxActive c > 0 -> active_count c s <= maxActive c.
Proof. intros Hr Hk. pose proof (iE _ _ (reach_inv s Hr) Hk). lia. Qed.

(* C03: attempts are bounded by the retry limit *)
Corollary C03_bounds s i : Reach c s ->
  att (nd s i) <= S (rc (nd s i)) /\ rc (nd s i) <= rlimit (steps c i).
Proof.
  intros Hr. pose proof (iD _ _ (reach_inv s Hr) i) as [H1 H2]. split; auto.
  pose proof (iA _ _ (reach_inv s Hr) i) as Hc. unfold coherent in Hc. unfold counts in *.
  destruct (ph (nd s i)) eqn:E; try lia; try contradiction.
Qed.

(* C01 from any state that satisfies the invariant (the initial state, the table of a retry): when a command starts
   every dependency permits it and has no worker, and no dependency starts again *)
Theorem start_after_deps_from s0 ls1 i ls2 s1 s2 s3 : Inv s0 ->
  run c s0 ls1 = Some s1 -> step s1 (WExecStart i) = Some s2 -> run c s2 ls2 = Some s3 ->
  forall d, In d (deps (steps c i)) ->
    okterm s1 d /\ active (ph (nd s1 d)) = false /\ ph (nd s1 d) <> PExec /\ ~ In (WExecStart d) ls2.
Proof.
  intros HI0 H1 H2 H3 d Hd. pose proof (run_inv _ _ _ HI0 H1) as HI.
  assert (Hok : okterm s1 d).
  { apply (iC _ _ HI i); [left|exact Hd]. apply exec_start_iff in H2. destruct H2 as (E & _). rewrite E. discriminate. }
  destruct (okterm_no_worker s1 d HI Hok) as [_ Ha]. repeat split; auto; [intros E; now rewrite E in Ha|].
  (* a permitting dependency stays one, and a command does not start from a node without a worker *)
  intros Hin.
  refine (run_never c (fun s => Inv s /\ okterm s d) (eq (WExecStart d)) _ _ ls2 s2 s3 _ H3 _ Hin eq_refl).
  - intros s l s' [A B] Hs. split; [eapply inv_step|eapply step_okterm_stable]; eauto.
  - intros s l [A B] <-. destruct (step s (WExecStart d)) as [s'|] eqn:Hs; [|reflexivity].
    apply exec_start_iff in Hs. destruct Hs as (E & _). destruct (okterm_no_worker s d A B) as [_ X]. now rewrite E in X.
  - split; [eapply inv_step|eapply step_okterm_stable]; eauto.
Qed.

Theorem C01_execution ls1 i ls2 s1 s2 s3 :
  run c (init c) ls1 = Some s1 -> step s1 (WExecStart i) = Some s2 -> run c s2 ls2 = Some s3 ->
  forall d, In d (deps (steps c i)) ->
    okterm s1 d /\ active (ph (nd s1 d)) = false /\ ph (nd s1 d) <> PExec /\ ~ In (WExecStart d) ls2.
Proof. apply start_after_deps_from, inv_init. Qed.

(* I4 for the quantity the code counts: nodes in state running *)
Lemma running_count_same (s : state) i y : st y = st (nd s i) ->
  length (filter (fun j => is_running (if j =? i then y else nd s j)) (seq 0 n))
  = length (filter (fun j => is_running (nd s j)) (seq 0 n)).
Proof.
  intros Hp. apply count_ext. intros j _. unfold is_running.
  destruct (Nat.eqb_spec j i) as [->|]; [now rewrite Hp|reflexivity].
Qed.

Definition RunCap (s : state) : Prop := maxActive c > 0 -> running_count c s + committed_n s <= maxActive c.

Lemma step_runcap s l s' : Inv s -> RunCap s -> step s l = Some s' -> RunCap s'.
Proof.
  intros HI HR Hs Hk. apply (step_cap is_running s l s' HI Hs Hk); auto.
  intros i x' e T Hl. now apply (only_launch_activates s i l x' e T Hl).
Qed.

(* C15: the number of nodes in state running (what the code counts), the number of live workers between launch
   and the end of the retry interval, and the number of commands executing never exceed maxActiveRuns.
   exec_count: commands executing; retrywait_count: commands executing or workers waiting out a retry interval. *)
Definition exec_count (s : state) : nat :=
  length (filter (fun j => match ph (nd s j) with PExec => true | _ => false end) (seq 0 n)).
Definition retrywait_count (s : state) : nat :=
  length (filter (fun j => match ph (nd s j) with PExec | PRetryWait => true | _ => false end) (seq 0 n)).

Theorem C15_bound_all s : Reach c s -> maxActive c > 0 ->
  running_count c s <= maxActive c /\ active_count c s <= maxActive c /\
  retrywait_count s <= maxActive c /\ exec_count s <= maxActive c.
Proof.
  intros Hr Hk.
  assert (HIR : Inv s /\ RunCap s).
  { apply reach_with_inv; [|intros; eapply step_runcap; eauto|exact Hr].
    intros _. change (running_count c) with (count is_running). rewrite count_none by reflexivity. cbn. lia. }
  destruct HIR as [HI HR]. specialize (HR Hk). pose proof (iE _ _ HI Hk) as HE.
  assert (H1 : retrywait_count s <= active_count c s).
  { apply filter_le. intros j. destruct (ph (nd s j)); simpl; congruence. }
  assert (H2 : exec_count s <= retrywait_count s).
  { apply filter_le. intros j. destruct (ph (nd s j)); simpl; congruence. }
  lia.
Qed.

(* a node waiting out its retry interval keeps status running (it occupies a slot) unless the run was stopped *)
Lemma retrywait_is_running s i : Reach c s -> canceled s = false -> ph (nd s i) = PRetryWait -> st (nd s i) = NRunning.
Proof. intros Hr Hc Hp. apply (iG _ _ (reach_inv s Hr) Hc). rewrite Hp. reflexivity. Qed.

End Pres.

(* Before fix f9e55a3 a Schedule call with done == nil (the package's own tests) let the worker that had
   reset a retried node fall through to scheduler.go:213 and flip the relaunched, running next attempt to finished
   (reproduced on the real code: findings/C01-done-nil-stale-flip.json).  The model has no such transition: in the same
   scenario the dependent cannot be committed while the second attempt executes, whether a done channel is given or not. *)
Definition flip_cfg : cfg :=
  mkcfg [ {| deps := []; cof := false; cos := false; rlimit := 1; pre := true; sfail := false; repeat := false; cfails := 0 |};
          {| deps := [0]; cof := false; cos := false; rlimit := 0; pre := true; sfail := false; repeat := false; cfails := 0 |} ]
        1 false false.
Definition flip_exec : list label :=
  [LCommit 0; LLaunch 0; WTest 0; WExecStart 0; WExecEnd 0 false; WAfter 0 false; WRetryWake 0;
   LCommit 0; LLaunch 0; WTest 0; WExecStart 0].

Lemma stale_flip_repaired :
  exists s, run flip_cfg (init flip_cfg) flip_exec = Some s /\
            norepeat flip_cfg /\ donech flip_cfg = false /\ maxActive flip_cfg = 1 /\
            In 0 (deps (steps flip_cfg 1)) /\ ph (nd s 0) = PExec /\ st (nd s 0) = NRunning /\
            step flip_cfg s (LCommit 1) = None.
Proof.
  apply ex_run. set (r := run flip_cfg (init flip_cfg) flip_exec). vm_compute in r. subst r. cbv beta iota.
  split; [eapply norepeat_steps; reflexivity|]. repeat split; auto. now left.
Qed.
