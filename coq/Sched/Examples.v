(* Concrete configurations and executions used as non-vacuity witnesses by Props/C01 C02 C03 C15; the diamond is also
   the example DAG of Graph/RankSched.v, Graph/RetrySched.v and Props/C10 C14. *)
From Coq Require Import List Arith Bool Lia.
Import ListNotations.
From BD.Sched Require Import Model Proofs ProofsFinal ProofsTerm.

Definition sd (ds : list nat) (r : nat) : stepdef :=
  {| deps := ds; cof := false; cos := false; rlimit := r; pre := true; sfail := false; repeat := false; cfails := 0 |}.

(* a diamond a -> {b, c} -> d, b with one retry, maxActiveRuns = 2, done channel present *)
Definition diamond : cfg := mkcfg [sd [] 0; sd [0] 1; sd [0] 0; sd [1; 2] 0] 2 false true.
Lemma diamond_ok : donech diamond = true /\ norepeat diamond.
Proof. split; [reflexivity|]. eapply norepeat_steps; reflexivity. Qed.

Definition launch (i : nat) : list label := [LCommit i; LLaunch i; WTest i; WExecStart i].
(* a runs; b and c run at the same time (capacity 2 reached); b fails once and is retried; then d is launched *)
Definition diamond_prefix : list label :=
  launch 0 ++ [WExecEnd 0 true; WAfter 0 false; WFinish 0] ++
  launch 1 ++ launch 2 ++
  [WExecEnd 1 false; WAfter 1 false; WExecEnd 2 true; WAfter 2 false; WFinish 2; WRetryWake 1] ++
  launch 1 ++ [WExecEnd 1 true; WAfter 1 false; WFinish 1] ++
  [LCommit 3; LLaunch 3; WTest 3].
Definition diamond_rest : list label :=
  [WExecEnd 3 true; WAfter 3 false; WFinish 3; LExit; HBegin; HFinish].
Definition diamond_full : list label := diamond_prefix ++ WExecStart 3 :: diamond_rest.

(* the state in which b and c execute together: the bound of C15 is attained *)
Definition diamond_two : list label := launch 0 ++ [WExecEnd 0 true; WAfter 0 false; WFinish 0] ++ launch 1 ++ launch 2.

Lemma diamond_wf : wf_deps diamond.
Proof.
  exists (fun i => i). intros i d Hi Hd.
  destruct i as [|[|[|[|i]]]]; cbn in Hd; try (exfalso; cbn in Hi; lia); intuition (subst; cbn; lia).
Qed.

Lemma diamond_done :
  exists s, run diamond (init diamond) diamond_full = Some s /\ pc s = LDone /\ quiet s /\ dry diamond = false /\
    map (fun i => (st (nd s i), rc (nd s i), att (nd s i), outs (nd s i))) [0; 1; 2; 3] =
      [(NSuccess, 0, 1, [true]); (NSuccess, 1, 2, [true; false]); (NSuccess, 0, 1, [true]); (NSuccess, 0, 1, [true])] /\
    length diamond_full <= bound diamond.
Proof. apply ex_run. vm_compute. repeat split; auto. repeat constructor. Qed.

(* a run with every kind of outcome: a fails twice (limit 1) and blocks b; c has an unmet precondition and, without
   continueOn.skipped, makes d skipped; e is independent and finishes *)
Definition mixed : cfg :=
  mkcfg [ sd [] 1;
          sd [0] 0;
          {| deps := []; cof := false; cos := false; rlimit := 0; pre := false; sfail := false; repeat := false; cfails := 0 |};
          sd [2] 0;
          sd [] 0 ] 0 false true.
Definition attempt (i : nat) (ok : bool) : list label := launch i ++ [WExecEnd i ok; WAfter i false].
Definition mixed_full : list label :=
  attempt 0 false ++ [WRetryWake 0] ++ attempt 0 false ++
  [LMark 1 0; LCommit 2; LSkipPre 2; LMark 3 2] ++
  attempt 4 true ++ [WFinish 4; LExit; HBegin; HFinish].

(* a dry run of the diamond: no command, every node finished *)
Definition diamond_dry : cfg := mkcfg [sd [] 0; sd [0] 1; sd [0] 0; sd [1; 2] 0] 2 true true.
Definition dry_node (i : nat) : list label := [LCommit i; LLaunch i; WTest i; WDryExec i; WAfter i false; WFinish i].
Definition diamond_dry_full : list label :=
  dry_node 0 ++ dry_node 1 ++ dry_node 2 ++ dry_node 3 ++ [LExit; HBegin; HFinish].
