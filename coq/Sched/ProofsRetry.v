(* Sched started from a RECORDED node table (retry of a run, C10): the statements of the step scheduler lifted from the
   initial state to any start state.  A retry starts from the table left by Graph.Retry.setup_retry: nodes that are
   kept carry their recorded status (finished / skipped) and have no worker; reset nodes are not-started. *)
From Coq Require Import List Arith Bool Lia PeanoNat.
Import ListNotations.
From BD.Sched Require Import Model Proofs ProofsFinal ProofsTerm ProofsStop.

Section Retry.
Variable c : cfg.
Hypothesis Hnorep : norepeat c.
Notation n := (nsteps c).

(* the start state of a retry: kept nodes have status finished (worker gone) or skipped (never launched), reset nodes are
   as in the initial state *)
Definition kept_node (v : nstatus) : node :=
  {| st := v; rc := 0; dc := 0; att := 0; ph := (match v with NSuccess => PGone | _ => PIdle end); stale := 0; outs := [] |}.
Definition init_from (tbl : nat -> nstatus) : state :=
  {| nd := fun i => match tbl i with NSuccess => kept_node NSuccess | NSkipped => kept_node NSkipped | _ => init_node end;
     canceled := false; lasterr := false; timedout := false; pc := LHead; sigq := []; sigleft := sigs c;
     hst := fun _ => {| hs := NNone; hatt := 0 |}; decided := None |}.

(* a kept node: recorded finished (its worker gone) or skipped (never launched), and not attempted *)
Definition kept (s : state) (i : nat) : Prop :=
  att (nd s i) = 0 /\ ((st (nd s i) = NSuccess /\ ph (nd s i) = PGone) \/ (st (nd s i) = NSkipped /\ ph (nd s i) = PIdle)).

(* a kept node is never touched: no label moves a finished node whose worker has left, or a skipped one that was never
   launched *)
Lemma kept_unchanged_step s l s' j : Inv c s -> kept s j -> step c s l = Some s' -> nd s' j = nd s j.
Proof.
  intros HI [Ha Hk] Hs. destruct (step_node c _ _ _ Hs j) as [E|(e & T & _)]; [exact E|exfalso].
  destruct T; try (destruct (committed_idle c _ _ HI H) as (_ & X & _)); destruct Hk as [[A B]|[A B]]; congruence.
Qed.

Lemma kept_step s l s' j : Inv c s -> kept s j -> step c s l = Some s' -> kept s' j.
Proof. intros HI Hk Hs. unfold kept. now rewrite (kept_unchanged_step s l s' j HI Hk Hs). Qed.

Lemma kept_unchanged_run ls s s' j : Inv c s -> kept s j -> run c s ls = Some s' -> nd s' j = nd s j /\ kept s' j.
Proof.
  intros HI Hk Hr.
  apply (run_preserves c (fun s1 => Inv c s1 /\ (nd s1 j = nd s j /\ kept s1 j))) with (s := s) (ls := ls); auto.
  intros s1 l s2 (A & B & C0) Hs. split; [eapply inv_step; eauto|].
  split; [rewrite <- B; eapply kept_unchanged_step|eapply kept_step]; eauto.
Qed.

(* C10: from any start state satisfying the scheduler invariant - in particular the table of a retry - a kept node
   (recorded finished / skipped) keeps its status, gets no attempt, and its command never starts; only reset
   (not-started) nodes can be executed *)
Theorem executes_only_reset s0 ls s j : Inv c s0 -> kept s0 j -> run c s0 ls = Some s ->
  kept s j /\ ~ In (WExecStart j) ls.
Proof.
  intros HI Hk Hr. split; [now apply (kept_unchanged_run ls s0 s j)|]. intros Hin.
  refine (run_never c (fun s => Inv c s /\ kept s j) (eq (WExecStart j)) _ _ ls s0 s (conj HI Hk) Hr _ Hin eq_refl).
  - intros s1 l s2 [A B] Hs. split; [eapply inv_step|eapply kept_step]; eauto.
  - intros s1 l [A [_ B]] <-. destruct (step c s1 (WExecStart j)) as [s2|] eqn:Hs; [|reflexivity].
    apply exec_start_iff in Hs. destruct Hs as (E & _). destruct B as [[_ B]|[_ B]]; congruence.
Qed.

(* the start state of a retry satisfies the invariant, provided the recorded table is consistent: every dependency of
   a kept finished node lets it proceed (what a recorded run guarantees: C01) *)
Definition tbl_consistent (tbl : nat -> nstatus) : Prop :=
  forall i, tbl i = NSuccess -> forall d, In d (deps (steps c i)) ->
    tbl d = NSuccess \/ (tbl d = NSkipped /\ cos (steps c d) = true).

Lemma inv_init_from tbl : tbl_consistent tbl -> Inv c (init_from tbl).
Proof.
  intros Hc. constructor; unfold init_from; cbn [nd pc canceled sigq].
  - intros i. unfold coherent. destruct (tbl i); cbn; auto.
  - intros i H. discriminate.
  - intros i Hl d Hd. unfold launched in Hl. cbn [nd pc] in Hl.
    assert (Hi : tbl i = NSuccess).
    { destruct (tbl i) eqn:E; auto; cbn in Hl; exfalso; destruct Hl as [X|[X|X]]; try congruence; try lia; try discriminate. }
    destruct (Hc i Hi d Hd) as [Hd1|[Hd1 Hd2]]; unfold okterm; cbn [nd]; rewrite Hd1; cbn; auto.
  - intros i. unfold counts. cbn [nd]. destruct (tbl i); cbn; lia.
  - intros H. congruence.
  - intros _ i H. destruct (tbl i); cbn in H; discriminate.
  - intros i. destruct (tbl i); reflexivity.
  - intros _. change (active_count c) with (count c (fun x => active (ph x))).
    rewrite count_none; [cbn; lia|]. intros j _. cbn [nd]. destruct (tbl j); reflexivity.
Qed.

Lemma kept_init_from tbl j : tbl j = NSuccess \/ tbl j = NSkipped -> kept (init_from tbl) j.
Proof. intros [H|H]; unfold kept, init_from; cbn [nd]; rewrite H; cbn; auto. Qed.

(* C10 (a), "in dependency order": Proofs.start_after_deps_from for a retry, from the recorded table; a kept dependency
   shows its recorded status at that instant *)
Theorem retry_start_after_deps tbl ls1 i ls2 s1 s2 s3 : tbl_consistent tbl ->
  run c (init_from tbl) ls1 = Some s1 -> step c s1 (WExecStart i) = Some s2 -> run c s2 ls2 = Some s3 ->
  forall d, In d (deps (steps c i)) ->
    okterm c s1 d /\ active (ph (nd s1 d)) = false /\ ph (nd s1 d) <> PExec /\ ~ In (WExecStart d) ls2 /\
    ((tbl d = NSuccess \/ tbl d = NSkipped) -> st (nd s1 d) = tbl d /\ att (nd s1 d) = 0).
Proof.
  intros Hc H1 H2 H3 d Hd.
  destruct (start_after_deps_from c Hnorep (init_from tbl) ls1 i ls2 s1 s2 s3 (inv_init_from tbl Hc) H1 H2 H3 d Hd) as (A & B & C0 & D).
  refine (conj A (conj B (conj C0 (conj D _)))). intros Hk.
  rewrite (proj1 (kept_unchanged_run ls1 _ _ d (inv_init_from tbl Hc) (kept_init_from tbl d Hk) H1)).
  unfold init_from. cbn [nd]. destruct Hk as [E|E]; rewrite E; cbn; auto.
Qed.

(* C10 (b), "every member of the unfinished part is subject to scheduling": C02 for runs from a recorded table.  Every
   reset (not kept) node is subject to scheduling and ends as C02 dictates; kept nodes count with their recorded status *)
Theorem retry_final_states tbl ls s i : tbl_consistent tbl ->
  run c (init_from tbl) ls = Some s -> quiet s -> pc s = LDone -> i < n ->
  tbl i <> NSuccess -> tbl i <> NSkipped -> final_clauses c s i.
Proof.
  intros Hc Hr Hq Hpc Hi H1 H2.
  apply final_node_clauses, (final_node_from c Hnorep (init_from tbl) ls s i); auto.
  - apply inv_init_from; exact Hc.
  - intros _. unfold init_from. cbn [pc]. split; intros X; discriminate X.
  - unfold qnode, qnode_gen, init_from. cbn [nd].
    destruct (tbl i); try congruence; cbn [init_node ph st att outs rc];
      (split; [auto|]; split; [intros [X|X]; [congruence|lia]|]; split; reflexivity).
Qed.

End Retry.
