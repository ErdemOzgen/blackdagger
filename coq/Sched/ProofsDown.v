(* C02, transitive form: every step reachable along dependency edges from a blocking step - through intermediate steps
   that do not carry continueOn.skipped - has not been executed and ends canceled or skipped.  (An intermediate step is
   itself canceled or skipped; a canceled one blocks its dependents unconditionally, a skipped one unless it has
   continueOn.skipped - hence the premise on intermediates.)  Corollary of ProofsFinal.final_states by induction on the path. *)
From Coq Require Import List Bool Arith.
Import ListNotations.
From BD.Sched Require Import Model Proofs ProofsFinal Examples.

Section Down.
Variable c : cfg.
Hypothesis Hnorep : norepeat c.

Inductive tdown (s : state) : nat -> Prop :=
| td_base i d : i < nsteps c -> In d (deps (steps c i)) -> dep_mark c s d <> None -> tdown s i
| td_step i d : i < nsteps c -> In d (deps (steps c i)) -> tdown s d -> cos (steps c d) = false -> tdown s i.

Lemma blocked_true s i d : In d (deps (steps c i)) -> dep_mark c s d <> None -> blocked c s i = true.
Proof.
  intros Hd Hm. unfold blocked. apply existsb_exists. exists d. split; [exact Hd|].
  unfold blocking. destruct (dep_mark c s d); [reflexivity|congruence].
Qed.

Lemma blocked_unexecuted s : Reach c s -> quiet s -> pc s = LDone -> forall i, i < nsteps c ->
  blocked c s i = true -> att (nd s i) = 0 /\ (st (nd s i) = NCancel \/ st (nd s i) = NSkipped).
Proof.
  intros R Q D i Hi B.
  destruct (final_states c Hnorep s R Q D i Hi) as [F _].
  destruct (F B) as [A [[S _]|[S _]]]; auto.
Qed.

Theorem transitive_downstream s : Reach c s -> quiet s -> pc s = LDone -> forall i, tdown s i ->
  att (nd s i) = 0 /\ (st (nd s i) = NCancel \/ st (nd s i) = NSkipped).
Proof.
  intros R Q D i T. induction T as [i d Hi Hd Hm | i d Hi Hd T IH Hc].
  - apply blocked_unexecuted; auto. now apply (blocked_true s i d).
  - apply blocked_unexecuted; auto. apply (blocked_true s i d); [exact Hd|].
    destruct IH as [_ [S|S]]; unfold dep_mark; rewrite S; [discriminate|]. rewrite Hc. discriminate.
Qed.

(* Converse (containment): in a run that ends without a stop, a step is canceled only if one of its dependencies is
   blocking, and skipped with its own precondition met only then - nothing outside the downstream set is cut. *)
Theorem cut_only_downstream s : Reach c s -> quiet s -> pc s = LDone -> forall i, i < nsteps c ->
  (st (nd s i) = NCancel \/ (st (nd s i) = NSkipped /\ pre (steps c i) = true)) -> blocked c s i = true.
Proof.
  intros R Q D i Hi H.
  destruct (final_node_reach c Hnorep s R Q D i Hi) as [B _ _|_ P _ S|_ _ _ _ S|_ _ _ _ _ S|_ _ _ _ X]; [exact B|exfalso..];
    try (apply ran_to_end_status in X; destruct X as [_ [S|S]]); destruct H as [H|[H P']]; congruence.
Qed.

End Down.

(* The execution of C02_transitive_nonvacuous (Props/C02.v): a -> b -> c, a fails (no retry); c is reached from the
   blocking step a through b (two edges), the run ends quietly at Done, b and c are never executed and end canceled. *)
Definition chain3 : cfg := mkcfg [ sd [] 0; sd [0] 0; sd [1] 0 ] 0 false true.
Definition chain3_full : list label := attempt 0 false ++ [LMark 1 0; LMark 2 1; LExit; HBegin; HFinish].
