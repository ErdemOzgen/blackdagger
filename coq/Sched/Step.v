(* Sched: what one label does.  `step` is inverted once (step_Step): a label either moves ONE node - the relation nstep,
   with a side effect on the rest of the state - or changes no node at all.  The views used by the invariants (one
   node: step_node; the flags: step_flags) and the induction principles over executions follow from it. *)
From Coq Require Import List Arith Bool Lia PeanoNat.
Import ListNotations.
From BD.Sched Require Import Model.

Lemma nstatus_eqb_eq a b : nstatus_eqb a b = true <-> a = b.
Proof. destruct a, b; simpl; split; intros; try discriminate; auto. Qed.
Lemma handler_eqb_eq a b : handler_eqb a b = true <-> a = b.
Proof. destruct a, b; simpl; split; intros; try discriminate; auto. Qed.
Lemma handler_eqb_refl h : handler_eqb h h = true.
Proof. now apply handler_eqb_eq. Qed.

Lemma is_committed_eq p i : is_committed p i = true -> p = LCommitted i.
Proof. destruct p; simpl; try discriminate. intros H. apply Nat.eqb_eq in H. now subst. Qed.
Lemma is_head_eq p : is_head p = true -> p = LHead.
Proof. destruct p; simpl; congruence. Qed.

(* a node at rest: its worker is not under way - never launched, or returned.  (Model.worker_gone, the test of HBegin,
   is this and `stale x = 0`; ProofsStop.gone is worker_gone of every node of the table.) *)
Definition resting (x : node) : bool := match ph x with PIdle | PGone => true | _ => false end.
Lemma resting_phase x : resting x = true <-> ph x = PIdle \/ ph x = PGone.
Proof. unfold resting. destruct (ph x); intuition discriminate. Qed.
Lemma worker_gone_resting x : worker_gone x = true -> resting x = true.
Proof. unfold worker_gone, resting. destruct (ph x); auto. Qed.

Lemma existsb_eqb_In d l : existsb (Nat.eqb d) l = true -> In d l.
Proof. intros H. apply existsb_exists in H. destruct H as (x & Hin & E). apply Nat.eqb_eq in E. now subst. Qed.

(* count_done touches the done count only *)
Lemma count_done_fields x :
  st (count_done x) = st x /\ ph (count_done x) = ph x /\ rc (count_done x) = rc x /\ att (count_done x) = att x /\
  stale (count_done x) = stale x /\ outs (count_done x) = outs x.
Proof. unfold count_done. destruct (st x) eqn:E; cbn; rewrite ?E; auto 7. Qed.
Lemma st_count_done x : st (count_done x) = st x. Proof. apply count_done_fields. Qed.
Lemma ph_count_done x : ph (count_done x) = ph x. Proof. apply count_done_fields. Qed.
Lemma rc_count_done x : rc (count_done x) = rc x. Proof. apply count_done_fields. Qed.
Lemma att_count_done x : att (count_done x) = att x. Proof. apply count_done_fields. Qed.
Lemma stale_count_done x : stale (count_done x) = stale x. Proof. apply count_done_fields. Qed.
Lemma outs_count_done x : outs (count_done x) = outs x. Proof. apply count_done_fields. Qed.

(* the fields of a node after with_st / with_ph / count_done *)
Ltac nsimpl :=
  cbn [st ph rc att dc stale outs with_st with_ph inc_dc] in *;
  rewrite ?st_count_done, ?ph_count_done, ?rc_count_done, ?att_count_done, ?stale_count_done, ?outs_count_done in *;
  cbn [st ph rc att dc stale outs with_st with_ph inc_dc] in *.

(* reading the guards of `step` *)
Ltac inv_guard H :=
  repeat match type of H with
  | (if ?b then _ else _) = Some _ => let E := fresh "G" in destruct b eqn:E; [|discriminate H]
  | match ?x with _ => _ end = Some _ => let E := fresh "M" in destruct x eqn:E; try discriminate H
  end.
Ltac split_guard :=
  repeat match goal with
  | H : _ && _ = true |- _ => apply andb_true_iff in H; destruct H
  | H : (_ <? _) = true |- _ => apply Nat.ltb_lt in H
  | H : nstatus_eqb _ _ = true |- _ => apply nstatus_eqb_eq in H
  | H : negb _ = true |- _ => apply negb_true_iff in H
  | H : (_ =? _) = true |- _ => apply Nat.eqb_eq in H
  end.

(* in the cases of nstep: the phase the label starts from, read into a fact HA about the node *)
Ltac phase_in HA := try match goal with H : ph (nd _ _) = _ |- _ => rewrite H in HA; cbn beta iota in HA end.

Lemma nd_set_nd s i x j : nd (set_nd s i x) j = if j =? i then x else nd s j.
Proof. reflexivity. Qed.
Lemma nd_set_same s i x : nd (set_nd s i x) i = x.
Proof. rewrite nd_set_nd. now rewrite Nat.eqb_refl. Qed.

Section Step.
Variable c : cfg.
Notation n := (nsteps c).

(* the rest of the state after a label that moves a node *)
Inductive effect := ENone | EErr | EHead | EPop.
Definition apply_eff (e : effect) (s : state) : state :=
  match e with
  | ENone => s
  | EErr => set_err s
  | EHead => set_pc s LHead
  | EPop => {| nd := nd s; canceled := canceled s; lasterr := lasterr s; timedout := timedout s; pc := pc s;
               sigq := tl (sigq s); sigleft := sigleft s; hst := hst s; decided := decided s |}
  end.

(* the worker's decision after Run returned: one node changes, and lastError may be set *)
Definition after_nd (s : state) (i : nat) (ok early : bool) : node := nd (after c s i ok early) i.
Definition after_err (s : state) (i : nat) (ok early : bool) : bool :=
  negb ok &&
  match (if early then NRunning else st (nd s i)) with
  | NSuccess | NCancel => false
  | _ => timedout s || canceled s || negb (rc (nd s i) <? rlimit (steps c i))
  end.

Lemma after_eq s i ok early :
  after c s i ok early = apply_eff (if after_err s i ok early then EErr else ENone) (set_nd s i (after_nd s i ok early)).
Proof.
  unfold after_nd, after_err, after, tail.
  destruct ok; cbn [negb andb];
    [|destruct (if early then NRunning else st (nd s i)), (timedout s), (canceled s), (rc (nd s i) <? rlimit (steps c i))];
    cbn [orb negb apply_eff]; unfold set_nd, set_err, upd; cbn; rewrite Nat.eqb_refl; reflexivity.
Qed.

Definition post_phase (p : wphase) : Prop := p = PRepeatWait \/ p = PPost \/ p = PGone \/ p = PRetryWait.

(* whatever the configuration: the worker is past the command, and only status, counters and phase have moved *)
Lemma after_nd_shape s i ok e :
  post_phase (ph (after_nd s i ok e)) /\
  (st (after_nd s i ok e) = NRunning -> st (nd s i) = NRunning) /\
  att (after_nd s i ok e) = att (nd s i) /\ outs (after_nd s i ok e) = outs (nd s i) /\
  stale (after_nd s i ok e) = stale (nd s i).
Proof.
  unfold after_nd, after, tail. cbn [canceled set_err].
  (* the phases the worker may go to *)
  set (p1 := if repeat (steps c i) && negb (canceled s) then PRepeatWait else PPost).
  set (p2 := if repeat (steps c i) && cof (steps c i) && negb (canceled s) then PRepeatWait
             else if donech c then PGone else PPost).
  assert (H1 : post_phase p1) by (unfold p1, post_phase; destruct (repeat (steps c i) && negb (canceled s)); auto).
  assert (H2 : post_phase p2)
    by (unfold p2, post_phase; destruct (repeat (steps c i) && cof (steps c i) && negb (canceled s)), (donech c); auto).
  clearbody p1 p2.
  destruct ok; [|destruct (if e then NRunning else st (nd s i)) eqn:E, (timedout s), (canceled s), (rc (nd s i) <? rlimit (steps c i))];
    rewrite nd_set_same; nsimpl;
    repeat split; auto; try discriminate; try (unfold post_phase; auto; fail); destruct e; congruence.
Qed.

(* where the worker goes after a failed command: with a done channel it reports and returns (scheduler.go:206-208),
   without one it falls through to the final status check *)
Definition fphase : wphase := if donech c then PGone else PPost.
Lemma fphase_cases : fphase = PGone \/ fphase = PPost.
Proof. unfold fphase. destruct (donech c); auto. Qed.

(* the error switch of a step without repeatPolicy, case by case: x is the node before, then the command's outcome,
   `early`, the node after, and whether lastError is set *)
Inductive after_case (s : state) (i : nat) (x : node) : bool -> bool -> node -> bool -> Prop :=
| AC_ok early : after_case s i x true early (with_ph (count_done x) PPost) false
| AC_seen : st x = NSuccess \/ st x = NCancel -> after_case s i x false false (with_ph (count_done x) fphase) false
| AC_cut early : timedout s = true \/ canceled s = true ->
    after_case s i x false early (with_ph (count_done (with_st x NCancel)) fphase) true
| AC_retry early : timedout s = false -> canceled s = false -> rc x < rlimit (steps c i) ->
    after_case s i x false early
      {| st := st x; rc := S (rc x); dc := dc x; att := att x; ph := PRetryWait; stale := stale x; outs := outs x |} false
| AC_error early : timedout s = false -> canceled s = false -> rlimit (steps c i) <= rc x ->
    after_case s i x false early (with_ph (count_done (with_st x NError)) fphase) true.

Lemma after_cases s i ok early : repeat (steps c i) = false ->
  after_case s i (nd s i) ok early (after_nd s i ok early) (after_err s i ok early).
Proof.
  intros Hr. unfold after_nd, after_err, after, tail. rewrite Hr. cbn [andb negb]. fold fphase.
  destruct ok; cbn [negb andb]; [rewrite nd_set_same; constructor|].
  destruct (if early then NRunning else st (nd s i)) eqn:E.
  (* the status read is finished or canceled: the node is left as it is *)
  4, 5: destruct early; [discriminate E|]; rewrite nd_set_same; apply AC_seen; auto.
  (* otherwise: deadline, stop, retry, failure - in this order *)
  all: destruct (timedout s) eqn:Ht; [|destruct (canceled s) eqn:Hc; [|destruct (rc (nd s i) <? rlimit (steps c i)) eqn:Hl]];
    cbn [orb negb]; rewrite nd_set_same;
    [apply AC_cut; auto|apply AC_cut; auto|apply Nat.ltb_lt in Hl; now apply AC_retry|apply Nat.ltb_ge in Hl; now apply AC_error].
Qed.

(* nstep s i l x' e: label l takes node i from nd s i to x' *)
Inductive nstep (s : state) (i : nat) : label -> node -> effect -> Prop :=
| NMark d m : i < n -> pc s = LHead -> st (nd s i) = NNone -> In d (deps (steps c i)) -> dep_mark c s d = Some m ->
    nstep s i (LMark i d) (with_st (nd s i) m) ENone
| NLaunch : pc s = LCommitted i -> pre (steps c i) = true ->
    nstep s i (LLaunch i) (with_ph (with_st (nd s i) NRunning) PSetup) EHead
| NSkipPre : pc s = LCommitted i -> pre (steps c i) = false ->
    nstep s i (LSkipPre i) (with_st (nd s i) NSkipped) EHead
| NSetupFail : ph (nd s i) = PSetup -> i < n -> setup_fails c i = true ->
    nstep s i (WSetupFail i) (with_ph (with_st (nd s i) NError) PPost) EErr
| NTest : ph (nd s i) = PSetup -> i < n -> setup_fails c i = false -> canceled s = false ->
    nstep s i (WTest i) (with_ph (nd s i) PStarting) ENone
| NSkipExec : ph (nd s i) = PSetup -> i < n -> setup_fails c i = false -> canceled s = true ->
    nstep s i (WSkipExec i)
      (with_ph (with_st (nd s i) (match st (nd s i) with NRunning => NCancel | v => v end)) PPost) ENone
| NExecStart : ph (nd s i) = PStarting -> i < n -> dry c = false -> timedout s = false -> create_fails c s i = false ->
    nstep s i (WExecStart i)
      {| st := st (nd s i); rc := rc (nd s i); dc := dc (nd s i); att := S (att (nd s i)); ph := PExec;
         stale := stale (nd s i); outs := outs (nd s i) |} ENone
| NDryExec : ph (nd s i) = PStarting -> i < n -> dry c = true ->
    nstep s i (WDryExec i) (with_ph (nd s i) (PEnded true)) ENone
| NExecRefused : ph (nd s i) = PStarting -> i < n -> dry c = false -> timedout s = true ->
    nstep s i (WExecRefused i) (with_ph (nd s i) (PEnded false)) ENone
| NCreateFail : ph (nd s i) = PStarting -> i < n -> dry c = false -> create_fails c s i = true ->
    nstep s i (WCreateFail i)
      {| st := st (nd s i); rc := rc (nd s i); dc := dc (nd s i); att := S (att (nd s i)); ph := PEnded false;
         stale := stale (nd s i); outs := false :: outs (nd s i) |} ENone
| NExecEnd ok : ph (nd s i) = PExec -> i < n ->
    nstep s i (WExecEnd i ok)
      {| st := st (nd s i); rc := rc (nd s i); dc := dc (nd s i); att := att (nd s i); ph := PEnded ok;
         stale := stale (nd s i); outs := ok :: outs (nd s i) |} ENone
| NAfter ok early : ph (nd s i) = PEnded ok -> i < n ->
    (early = false \/ (early = true /\ ok = false /\ st (nd s i) = NCancel)) ->
    nstep s i (WAfter i early) (after_nd s i ok early) (if after_err s i ok early then EErr else ENone)
| NRetryWake : ph (nd s i) = PRetryWait -> i < n ->
    nstep s i (WRetryWake i)
      {| st := NNone; rc := rc (nd s i); dc := S (dc (nd s i)); att := att (nd s i); ph := PIdle;
         stale := stale (nd s i); outs := outs (nd s i) |} ENone
| NRepeatWake : ph (nd s i) = PRepeatWait -> i < n ->
    nstep s i (WRepeatWake i) (with_ph (nd s i) PSetup) ENone
| NFinish : ph (nd s i) = PPost -> i < n ->
    nstep s i (WFinish i)
      (with_ph (with_st (nd s i) (match st (nd s i) with NRunning => NSuccess | v => v end)) PGone) ENone
| NSignal k : hd_error (sigq s) = Some i -> repeat (steps c i) = false -> st (nd s i) = NRunning ->
    nstep s i (SigNode k) (with_st (nd s i) NCancel) EPop.

Inductive Step (s : state) : label -> state -> Prop :=
| SNode l i x' e : nstep s i l x' e -> Step s l (apply_eff e (set_nd s i x'))
| SCommit i : i < n -> pc s = LHead -> st (nd s i) = NNone -> ready c s i = true -> canceled s = false ->
    (maxActive c = 0 \/ running_count c s < maxActive c) -> Step s (LCommit i) (set_pc s (LCommitted i))
| SExit : pc s = LHead -> (canceled s = true \/ all_terminal c s = true) -> Step s LExit (set_pc s LExited)
| SSigFlag k : sigleft s = S k ->
    Step s SigFlag {| nd := nd s; canceled := true; lasterr := lasterr s; timedout := timedout s; pc := pc s;
                      sigq := sigq s ++ seq 0 n; sigleft := k; hst := hst s; decided := decided s |}
| SSigPass k i q : sigq s = i :: q -> (repeat (steps c i) = true \/ st (nd s i) <> NRunning) ->
    Step s (SigNode k) (apply_eff EPop s)
| STimeout : tmo c = true -> timedout s = false ->
    Step s Timeout {| nd := nd s; canceled := canceled s; lasterr := lasterr s; timedout := true; pc := pc s;
                      sigq := sigq s; sigleft := sigleft s; hst := hst s; decided := decided s |}
| SHBegin : pc s = LExited -> all_gone c s = true ->
    Step s HBegin {| nd := nd s; canceled := canceled s; lasterr := lasterr s; timedout := timedout s;
                     pc := LHandlers (handlers_for c s) false; sigq := sigq s; sigleft := sigleft s;
                     hst := hst s; decided := Some (overall c s) |}
| SHStart h t : pc s = LHandlers (h :: t) false -> dry c = false -> hsfail c h = false ->
    Step s (HStart h) (set_pc (set_hst s h {| hs := NRunning; hatt := S (hatt (hst s h)) |}) (LHandlers (h :: t) true))
| SHEnd h ok t : pc s = LHandlers (h :: t) true ->
    Step s (HEnd h ok) (set_pc (set_hst s h {| hs := (if ok then NSuccess else NError); hatt := hatt (hst s h) |})
                               (LHandlers t false))
| SHSkip h t : pc s = LHandlers (h :: t) false -> dry c = true ->
    Step s (HSkip h) (set_pc (set_hst s h {| hs := NSuccess; hatt := hatt (hst s h) |}) (LHandlers t false))
| SHSetupFail h t : pc s = LHandlers (h :: t) false -> dry c = false -> hsfail c h = true ->
    Step s (HSetupFail h) (set_pc (set_hst s h {| hs := NError; hatt := hatt (hst s h) |}) (LHandlers t false))
| SHFinish : pc s = LHandlers [] false -> Step s HFinish (set_pc s LDone).

(* the Signal pass: whatever the guard, the head of the queue is popped *)
Lemma signode_Step s k s' : step c s (SigNode k) = Some s' -> Step s (SigNode k) s'.
Proof.
  intros Hs. cbn [step] in Hs. destruct (sigq s) as [|i q] eqn:Hq; [discriminate|].
  replace q with (tl (sigq s)) in Hs by now rewrite Hq.
  inv_guard Hs; injection Hs as <-; try (apply (SSigPass s _ i q Hq); auto; right; congruence).
  apply (SNode s _ i _ EPop). constructor; auto. now rewrite Hq.
Qed.

Theorem step_Step s l s' : step c s l = Some s' -> Step s l s'.
Proof.
  intros Hs. destruct l; try exact (signode_Step _ _ _ Hs); cbn [step] in Hs.
  all: inv_guard Hs; injection Hs as <-; split_guard;
    repeat match goal with
    | H : is_head _ = true |- _ => apply is_head_eq in H
    | H : is_committed _ _ = true |- _ => apply is_committed_eq in H
    | H : handler_eqb _ _ = true |- _ => apply handler_eqb_eq in H; subst
    | H : existsb (Nat.eqb _) _ = true |- _ => apply existsb_eqb_In in H
    end.
  all: try (econstructor; eassumption).     (* the Signal flag, the deadline, the handlers *)
  all: try (first [apply (SNode s _ i _ ENone)|apply (SNode s _ i _ EHead)|apply (SNode s _ i _ EErr)]; now constructor).
  - (* LCommit *) constructor; auto. apply orb_true_iff in H0. destruct H0 as [H0|H0]; [left; now apply Nat.eqb_eq|right; now apply Nat.ltb_lt].
  - (* LExit *) constructor; auto. now apply orb_true_iff.
  - (* WAfter *)
    rewrite after_eq. apply SNode. constructor; auto.
    destruct early; [right|now left]. cbn in H0. apply andb_true_iff in H0. destruct H0 as [A B].
    apply negb_true_iff in A. apply nstatus_eqb_eq in B. auto.
Qed.

Lemma nd_apply_eff e s : nd (apply_eff e s) = nd s.
Proof. destruct e; reflexivity. Qed.

(* one node: it keeps its record, or it is the node the label moves *)
Lemma step_node s l s' : step c s l = Some s' -> forall j,
  nd s' j = nd s j \/ exists e, nstep s j l (nd s' j) e /\ s' = apply_eff e (set_nd s j (nd s' j)).
Proof.
  intros Hs j. destruct (step_Step _ _ _ Hs) as [l i x' e T| | | | | | | | | | | ]; try (left; reflexivity).
  destruct (Nat.eq_dec j i) as [->|Hne].
  - right. exists e. now rewrite nd_apply_eff, nd_set_same.
  - left. rewrite nd_apply_eff, nd_set_nd. apply Nat.eqb_neq in Hne. now rewrite Hne.
Qed.

(* ... field by field *)
Lemma moved_state e s j x s' : s' = apply_eff e (set_nd s j x) ->
  timedout s' = timedout s /\ canceled s' = canceled s /\
  lasterr s' = match e with EErr => true | _ => lasterr s end /\
  pc s' = match e with EHead => LHead | _ => pc s end /\
  sigq s' = match e with EPop => tl (sigq s) | _ => sigq s end /\ sigleft s' = sigleft s.
Proof. intros ->. now destruct e. Qed.

(* the flags only go up; the decided outcome stays *)
Lemma step_flags s l s' : step c s l = Some s' ->
  (canceled s = true -> canceled s' = true) /\ (timedout s = true -> timedout s' = true) /\
  (lasterr s = true -> lasterr s' = true) /\ (forall o, decided s = Some o -> decided s' = Some o).
Proof.
  intros Hs. destruct (step_Step _ _ _ Hs) as [l i x' e T| | | | | | | | | | | ]; try destruct e; cbn; auto 6.
  repeat split; auto. intros o Ho. unfold overall. now rewrite Ho.
Qed.

Lemma run_app s a b : run c s (a ++ b) = match run c s a with Some m => run c m b | None => None end.
Proof. revert s. induction a as [|l a IH]; simpl; intros s; [reflexivity|]. destruct (step c s l); auto. Qed.

(* a property that every label preserves holds along every execution *)
Lemma run_preserves (P : state -> Prop) : (forall s l s', P s -> step c s l = Some s' -> P s') ->
  forall ls s s', P s -> run c s ls = Some s' -> P s'.
Proof.
  intros Hstep. induction ls as [|l ls IH]; simpl; intros s s' HP Hr; [now injection Hr as <-|].
  destruct (step c s l) eqn:Hs; [|discriminate]. eauto.
Qed.

Lemma reach_preserves (P : state -> Prop) : P (init c) -> (forall s l s', P s -> step c s l = Some s' -> P s') ->
  forall s, Reach c s -> P s.
Proof. intros H0 Hstep s [ls Hr]. exact (run_preserves P Hstep ls _ _ H0 Hr). Qed.

Lemma reach_step s l s' : Reach c s -> step c s l = Some s' -> Reach c s'.
Proof. intros [ls Hr] Hs. exists (ls ++ [l]). rewrite run_app, Hr. simpl. now rewrite Hs. Qed.

(* labels that are disabled wherever P holds do not occur in an execution from a P-state *)
Lemma run_never (P : state -> Prop) (B : label -> Prop) : (forall s l s', P s -> step c s l = Some s' -> P s') ->
  (forall s l, P s -> B l -> step c s l = None) ->
  forall ls s s', P s -> run c s ls = Some s' -> forall l, In l ls -> ~ B l.
Proof.
  intros Hstep Hdis. induction ls as [|l0 ls IH]; simpl; intros s s' HP Hr l Hin HB; [assumption|].
  destruct (step c s l0) eqn:Hs; [|discriminate]. destruct Hin as [->|Hin]; [|now apply (IH _ _ (Hstep _ _ _ HP Hs) Hr l)].
  rewrite (Hdis _ _ HP HB) in Hs. discriminate.
Qed.

(* a claim about the outcome of a concrete execution: the execution is evaluated once, inside the claim *)
Lemma ex_run s0 ls (Q : state -> Prop) :
  match run c s0 ls with Some s => Q s | None => False end -> exists s, run c s0 ls = Some s /\ Q s.
Proof. destruct (run c s0 ls); [eauto|tauto]. Qed.
Lemma ex_reach ls (Q : state -> Prop) :
  match run c (init c) ls with Some s => Q s | None => False end -> exists s, Reach c s /\ Q s.
Proof. intros H. destruct (ex_run _ _ _ H) as (s & Hr & Hq). exists s. split; [now exists ls|exact Hq]. Qed.
(* ... of an execution cut in three: before a label, the label, after it *)
Lemma ex_run3 s0 pre l post (Q : state -> state -> state -> Prop) :
  match run c s0 pre with
  | Some s1 => match step c s1 l with
               | Some s2 => match run c s2 post with Some s3 => Q s1 s2 s3 | None => False end
               | None => False end
  | None => False end ->
  exists s1 s2 s3, run c s0 pre = Some s1 /\ step c s1 l = Some s2 /\ run c s2 post = Some s3 /\ Q s1 s2 s3.
Proof.
  intros H. destruct (ex_run _ _ _ H) as (s1 & E1 & H1). destruct (step c s1 l) as [s2|] eqn:E2; [|tauto].
  destruct (ex_run _ _ _ H1) as (s3 & E3 & H3). exists s1, s2, s3. auto.
Qed.

(* when a command may start *)
Lemma exec_start_iff s i s' : step c s (WExecStart i) = Some s' <->
  ph (nd s i) = PStarting /\ i < n /\ dry c = false /\ timedout s = false /\ create_fails c s i = false /\
  s' = set_nd s i {| st := st (nd s i); rc := rc (nd s i); dc := dc (nd s i); att := S (att (nd s i)); ph := PExec;
                     stale := stale (nd s i); outs := outs (nd s i) |}.
Proof.
  cbn [step]. split.
  - intros Hs. inv_guard Hs. injection Hs as <-. split_guard. auto 7.
  - intros (-> & Hi & -> & -> & -> & ->). apply Nat.ltb_lt in Hi. now rewrite Hi.
Qed.

End Step.
