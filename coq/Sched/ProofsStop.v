(* Sched: run outcome and handlers (C04), stop and timeout (C05): invariant conjunct I5 (errors) of DESIGN.md A.2, the
   outcome at the moment the handlers are chosen, the handler phase, "finished means ran", the Signal pass.  The
   executions that show the defects F4a, F5a, F5c, F5d repaired (DESIGN.md section 6) are in Examples2.v. *)
From Coq Require Import List Arith Bool Lia PeanoNat.
Import ListNotations.
From BD.Sched Require Import Model Proofs ProofsFinal.

Section Stop.
Variable c : cfg.
Hypothesis Hnorep : norepeat c.
Notation n := (nsteps c).
Notation step := (step c).
Notation Inv := (Inv c).

(* I5.  A node that accounts for lastError: it failed, timed out, or its command ended after the stop *)
Definition err_witness (x : node) : Prop :=
  (ph x = PPost /\ (st x = NError \/ st x = NCancel)) \/
  (ph x = PGone /\ (st x = NError \/ st x = NCancel \/ st x = NRunning)).

(* the invariant of lastError *)
Record EInv (s : state) : Prop := {
  e1 : forall i, st (nd s i) = NError -> lasterr s = true;
  e2 : canceled s = false -> timedout s = false -> forall i, st (nd s i) = NCancel -> lasterr s = true;
  e3 : lasterr s = true -> exists i, i < n /\ err_witness (nd s i)
}.

Lemma err_witness_kept (x y : node) : ph y = ph x -> st y = st x -> err_witness x -> err_witness y.
Proof. unfold err_witness. intros -> ->. auto. Qed.

Lemma step_e1 s l s' : EInv s -> step s l = Some s' -> forall j, st (nd s' j) = NError -> lasterr s' = true.
Proof.
  intros HE Hs j. destruct (step_flags c _ _ _ Hs) as (_ & _ & Fl & _).
  assert (Hold : st (nd s j) = NError -> lasterr s' = true) by (intros X; apply Fl, (e1 _ HE j X)).
  destruct (step_node c _ _ _ Hs j) as [->|(e & T & Es)]; [exact Hold|].
  assert (Herr : e = EErr -> lasterr s' = true) by (intros ->; now rewrite Es). clear Es. revert Herr.
  destruct T; nsimpl; intros Herr; auto; try discriminate.
  - intros ->. apply dep_mark_values in H3. destruct H3; discriminate.
  - destruct (st (nd s j)); auto; discriminate.
  - revert Herr. destruct (after_cases c s j ok early (Hnorep j)); intros Herr; nsimpl; auto; discriminate.
  - destruct (st (nd s j)); auto; discriminate.
Qed.

Lemma step_e2 s l s' : Inv s -> EInv s -> step s l = Some s' ->
  canceled s' = false -> timedout s' = false -> forall j, st (nd s' j) = NCancel -> lasterr s' = true.
Proof.
  intros HI HE Hs Hc Ht j.
  destruct (quiet_back c _ _ _ Hs (conj Hc Ht)) as [Hc0 Ht0].
  destruct (step_flags c _ _ _ Hs) as (_ & _ & Fl & _).
  pose proof (e1 _ HE) as E1. pose proof (e2 _ HE Hc0 Ht0) as E2.
  assert (Hold : st (nd s j) = NCancel -> lasterr s' = true) by (intros X; apply Fl; eauto).
  destruct (step_node c _ _ _ Hs j) as [->|(e & T & _)]; [exact Hold|].
  (* in a run that is not stopped a node becomes canceled only by the mark of a failed or canceled dependency *)
  destruct T; nsimpl; auto; try discriminate; try congruence.
  - intros ->. apply Fl. unfold dep_mark in H3. destruct (st (nd s d)) eqn:Ed; try discriminate; eauto.
    destruct (cos (steps c d)); discriminate.
  - destruct (after_cases c s j ok early (Hnorep j)) as [| |? [X|X]| |]; nsimpl; auto; try discriminate; congruence.
  - destruct (st (nd s j)); auto; discriminate.
  - rewrite (signal_flag c _ _ HI H) in Hc0. discriminate.
Qed.

Lemma step_e3 s l s' : Inv s -> EInv s -> step s l = Some s' ->
  lasterr s' = true -> exists j, j < n /\ err_witness (nd s' j).
Proof.
  intros HI HE Hs Hl.
  (* the old witness survives every label *)
  assert (Hold : lasterr s = true -> exists j, j < n /\ err_witness (nd s' j)).
  { intros Hl0. destruct (e3 _ HE Hl0) as (w & Hw & Hwit). exists w. split; [exact Hw|].
    destruct (step_node c _ _ _ Hs w) as [->|(e & T & _)]; [exact Hwit|].
    pose proof (iA _ _ HI w) as HA. unfold err_witness, coherent in *.
    destruct T; phase_in HA; nsimpl; try (exfalso; intuition congruence).
    - (* LLaunch *) destruct (committed_idle c _ _ HI H) as (_ & E & _). exfalso; intuition congruence.
    - (* LSkipPre *) destruct (committed_idle c _ _ HI H) as (_ & E & _). exfalso; intuition congruence.
    - (* WFinish *) right. split; [reflexivity|]. destruct Hwit as [[_ [-> | ->]]|[X _]]; [auto|auto|congruence].
    - (* Signal *) intuition congruence. }
  destruct (step_Step c _ _ _ Hs) as [l i x' e T| | | | | | | | | | | ]; auto.
  destruct e; auto.
  (* the label records an error: its node is the witness *)
  unfold err_witness. remember EErr as e eqn:Ee.
  destruct T; try discriminate Ee; (exists i; split; [assumption|]); rewrite nd_apply_eff, nd_set_same.
  - nsimpl. auto.
  - revert Ee. destruct (after_cases c s i ok early (Hnorep i)); intros Ee; try discriminate Ee;
      destruct (fphase_cases c) as [-> | ->]; nsimpl; auto 6.
Qed.

Lemma einv_step s l s' : Inv s -> EInv s -> step s l = Some s' -> EInv s'.
Proof.
  intros HI HE Hs. constructor.
  - eapply step_e1; eauto.
  - eapply step_e2; eauto.
  - eapply step_e3; eauto.
Qed.

Lemma reach_einv s : Reach c s -> Inv s /\ EInv s.
Proof. apply (reach_with_inv c Hnorep EInv); [constructor; cbn; intros; discriminate|exact einv_step]. Qed.

(* the handler phase, once entered, is not left; before it nothing is decided: Status is computed from the node table *)
Lemma past_wait_step s l s' : step s l = Some s' ->
  (past_wait (pc s) = true -> past_wait (pc s') = true) /\
  ((past_wait (pc s) = false -> decided s = None) -> past_wait (pc s') = false -> decided s' = None).
Proof.
  intros Hs. destruct (step_Step c _ _ _ Hs) as [l i x' e T| | | | | | | | | | | ]; cbn [pc decided set_pc set_hst apply_eff];
    repeat match goal with H : pc s = _ |- _ => rewrite H end; cbn [past_wait]; auto; try (split; [auto|discriminate]).
  destruct T; cbn [pc decided set_pc set_hst set_nd set_err apply_eff];
    repeat match goal with H : pc s = _ |- _ => rewrite H end; cbn [past_wait]; auto.
  destruct (after_err c s i ok early); cbn; auto.
Qed.

Lemma reach_undecided s : Reach c s -> past_wait (pc s) = false -> decided s = None.
Proof.
  apply (reach_preserves c (fun s => past_wait (pc s) = false -> decided s = None)); [reflexivity|].
  intros s0 l s1 H Hs. now apply (past_wait_step s0 l s1 Hs).
Qed.

(* the test inside Model.is_succeed *)
Definition node_ok (v : nstatus) : bool := match v with NSuccess | NSkipped => true | _ => false end.

Lemma is_succeed_spec s : is_succeed c s = true <-> forall i, i < n -> node_ok (st (nd s i)) = true.
Proof.
  unfold is_succeed. rewrite forallb_forall. split.
  - intros H i Hi. apply (H i). apply in_seq. lia.
  - intros H i Hi. apply in_seq in Hi. apply (H i). lia.
Qed.

Lemma graph_running_false s : (forall i, i < n -> st (nd s i) <> NRunning) -> graph_running c s = false.
Proof.
  intros H. unfold graph_running. destruct (existsb (fun j => is_running (nd s j)) (seq 0 n)) eqn:E; [|reflexivity].
  apply existsb_exists in E. destruct E as (i & Hin & Hr). apply in_seq in Hin. unfold is_running in Hr.
  apply nstatus_eqb_eq in Hr. exfalso. apply (H i); [lia|exact Hr].
Qed.

(* the outcome at the moment the handlers are chosen (loop left), without timeout: finished if every step is finished or
   skipped; else canceled if the stop flag is set; else failed - and then some step has failed *)
Lemma overall_at_exit s : Reach c s -> pc s = LExited -> timedout s = false ->
  overall c s = (if is_succeed c s then OSuccess else if canceled s then OCancel else OError) /\
  (is_succeed c s = false -> canceled s = false -> exists i, i < n /\ st (nd s i) = NError).
Proof.
  intros Hr Hpc Ht. destruct (reach_einv s Hr) as [HI HE]. destruct (reach_all_inv c Hnorep s Hr) as (_ & HQ & HX).
  unfold overall. rewrite (reach_undecided s Hr) by now rewrite Hpc. unfold computed_overall.
  destruct (is_succeed c s) eqn:Es.
  - (* nothing is running, nothing accounts for an error *)
    split; [|discriminate]. pose proof (proj1 (is_succeed_spec s) Es) as Hall. unfold node_ok in Hall.
    rewrite Bool.andb_false_r, graph_running_false
      by (intros i Hi Hrun; specialize (Hall i Hi); rewrite Hrun in Hall; discriminate).
    assert (El : lasterr s = false).
    { destruct (lasterr s) eqn:El; [|reflexivity]. destruct (e3 _ HE El) as (i & Hi & Hw).
      specialize (Hall i Hi). unfold err_witness in Hw. destruct (st (nd s i)); try discriminate; intuition congruence. }
    assert (Hat : all_terminal c s = true).
    { apply forallb_forall. intros i Hi. apply in_seq in Hi. specialize (Hall i ltac:(lia)). destruct (st (nd s i)); auto. }
    now rewrite El, Hat.
  - destruct (canceled s) eqn:Ec; [split; [reflexivity|discriminate]|]. cbn [andb].
    (* the run was not stopped: every node is terminal; one of them is failed or canceled, which records an error *)
    destruct (HX (conj Ec Ht)) as [HX1 _]. rewrite Hpc in HX1. specialize (HX1 eq_refl).
    rewrite graph_running_false by (intros j Hj Hrun; specialize (HX1 j Hj); rewrite Hrun in HX1; discriminate).
    assert (El : lasterr s = true).
    { destruct (lasterr s) eqn:El; [reflexivity|]. rewrite <- Es. apply is_succeed_spec. intros i Hi.
      specialize (HX1 i Hi). destruct (st (nd s i)) eqn:Est; try discriminate HX1; try reflexivity.
      - now rewrite (e1 _ HE i Est) in El.
      - now rewrite (e2 _ HE Ec Ht i Est) in El. }
    rewrite El. split; [reflexivity|]. intros _ _.
    (* the node that accounts for the error is failed: in a quiet run no worker leaves a canceled node behind *)
    destruct (e3 _ HE El) as (i & Hi & Hw). exists i. split; [exact Hi|].
    destruct (HQ (conj Ec Ht) i) as (_ & _ & Q3). unfold err_witness in Hw.
    destruct Hw as [[Hp Hs]|[Hp Hs]]; rewrite Hp in Q3; destruct Hs as [Hs|Hs]; auto; try destruct Hs as [Hs|Hs];
      rewrite Hs in Q3; contradiction.
Qed.

(* a handler's turn: it is started, or the set-up of its node fails (it is marked failed and not run) *)
Definition hturn_of (l : label) : list handler := match l with HStart h | HSetupFail h => [h] | _ => [] end.
Definition hturns (ls : list label) : list handler := flat_map hturn_of ls.
(* the handlers whose command is started *)
Definition hstart_of (l : label) : list handler := match l with HStart h => [h] | _ => [] end.
Definition hstarts (ls : list label) : list handler := flat_map hstart_of ls.
(* labels of the scheduling loop and of the step workers *)
Definition is_node_label (l : label) : bool :=
  match l with
  | SigFlag | SigNode _ | Timeout | HBegin | HStart _ | HEnd _ _ | HSkip _ | HSetupFail _ | HFinish => false
  | _ => true end.
Definition gone (s : state) : Prop := forall i, i < n -> worker_gone (nd s i) = true.

Lemma timedout_back s l s' : step s l = Some s' -> timedout s' = false -> timedout s = false.
Proof using Hnorep.
  intros Hs Ht. destruct (timedout s) eqn:E; [|reflexivity]. now rewrite (proj1 (proj2 (step_flags c _ _ _ Hs)) E) in Ht.
Qed.
Lemma canceled_mono s l s' : step s l = Some s' -> canceled s = true -> canceled s' = true.
Proof using Hnorep. intros Hs. apply (step_flags c _ _ _ Hs). Qed.
Lemma lasterr_mono s l s' : step s l = Some s' -> lasterr s = true -> lasterr s' = true.
Proof using Hnorep. intros Hs. apply (step_flags c _ _ _ Hs). Qed.

(* the handlers whose turn is still to come *)
Definition exp_of (p : lpc) : list handler :=
  match p with LHandlers todo cur => if cur then tl todo else todo | _ => [] end.

(* when the handlers are chosen: the loop has left, every worker is gone, the outcome is decided *)
Lemma hbegin_spec s s' : step s HBegin = Some s' ->
  pc s = LExited /\ gone s /\ gone s' /\ pc s' = LHandlers (handlers_for c s) false /\ decided s' = Some (overall c s).
Proof.
  cbn [Model.step]. intros H. destruct (pc s); try discriminate. destruct (all_gone c s) eqn:Eg; [|discriminate].
  injection H as <-. pose proof (forallb_seq_lt _ _ Eg) as Hg. auto 6.
Qed.

(* one label in the handler phase (or after Done) *)
Lemma handler_phase_step s l s' : past_wait (pc s) = true -> gone s -> step s l = Some s' ->
  is_node_label l = false /\ gone s' /\ past_wait (pc s') = true /\
  (dry c = false -> hturn_of l ++ exp_of (pc s') = exp_of (pc s)).
Proof.
  intros Hph Hg Hs.
  destruct (step_Step c _ _ _ Hs) as [l i x' e T| | | | | | | | | | | ]; cbn [pc set_pc set_hst apply_eff];
    repeat match goal with H : pc s = _ |- _ => rewrite H in * end; try discriminate Hph;
    try (repeat split; auto; cbn; congruence).
  (* every worker has left: the only node label left is the Signal pass finding a node still labelled running *)
  destruct T; try (destruct (proj1 (resting_phase _) (worker_gone_resting _ (Hg i ltac:(assumption)))); congruence);
    try (match goal with H : pc s = _ |- _ => rewrite H in Hph; discriminate Hph end).
  repeat split; auto. intros j Hj. specialize (Hg j Hj). rewrite nd_apply_eff, nd_set_nd.
  destruct (Nat.eqb_spec j i) as [->|]; exact Hg.
Qed.

(* C04_handlers, the part after HBegin: no label of the loop or of a step worker occurs any more, and the handlers have
   their turn in the order chosen *)
Lemma handler_phase_run ls : forall s s', past_wait (pc s) = true -> gone s ->
  run c s ls = Some s' -> dry c = false ->
  hturns ls ++ exp_of (pc s') = exp_of (pc s) /\ forallb (fun l => negb (is_node_label l)) ls = true.
Proof.
  induction ls as [|l ls IH]; intros s s' Hph Hg Hr Hdry.
  - simpl in Hr. injection Hr as <-. auto.
  - simpl in Hr. destruct (step s l) as [s1|] eqn:Hs; [|discriminate].
    destruct (handler_phase_step s l s1 Hph Hg Hs) as (Hnl & Hg1 & Hph1 & He).
    destruct (IH s1 s' Hph1 Hg1 Hr Hdry) as (Hh & Hf).
    split; [|cbn [forallb]; rewrite Hnl, Hf; reflexivity].
    cbn [hturns flat_map]. fold (hturns ls). rewrite <- app_assoc, Hh. apply He; assumption.
Qed.

(* ... and the part before: a handler's turn needs pc = LHandlers, and the handler phase is not left *)
Lemma no_turn_before ls : forall s s', run c s ls = Some s' -> past_wait (pc s') = false -> hturns ls = [].
Proof.
  induction ls as [|l ls IH]; intros s s' Hr Hp'; [reflexivity|].
  assert (Hp : past_wait (pc s) = false).
  { destruct (past_wait (pc s)) eqn:E; [|reflexivity]. rewrite <- Hp'. symmetry.
    apply (run_preserves c (fun s => past_wait (pc s) = true)) with (s := s) (ls := l :: ls); auto.
    intros s0 l0 s0' X Hs0. now apply (past_wait_step s0 l0 s0' Hs0). }
  simpl in Hr. destruct (step s l) as [sx|] eqn:Hs; [|discriminate].
  cbn [hturns flat_map]. fold (hturns ls). rewrite (IH sx s' Hr Hp'), app_nil_r.
  destruct l; try reflexivity; exfalso; cbn [Model.step] in Hs; destruct (pc s); try discriminate Hs; discriminate Hp.
Qed.

(* "finished" means the command ran and its last attempt succeeded - also in a stopped run.  (Before fix ac08004 this
   was false: a step the loop had committed when the stop arrived was launched afterwards, skipped its command and was
   reported finished - F5c.) *)
Definition hdtrue (x : node) : Prop := exists fs, outs x = true :: fs.
(* on the way to `finished`: the command has ended ok, or the worker has seen that and the node is still running *)
Definition finishing (x : node) : Prop := ph x = PEnded true \/ (ph x = PPost /\ st x = NRunning) \/ st x = NSuccess.
(* the invariant behind "finished means ran": it holds in every run, stopped or not *)
Definition RInv (s : state) : Prop := forall i, finishing (nd s i) -> dry c = false -> hdtrue (nd s i).

(* the chain WExecEnd ok -> WAfter (status still running) -> WFinish is the only way to `finished` *)
Lemma rinv_step s l s' : Inv s -> RInv s -> step s l = Some s' -> RInv s'.
Proof.
  intros HI HR Hs j G' Hd. pose proof (HR j) as R. pose proof (iA _ _ HI j) as HA. unfold coherent in HA.
  destruct (step_node c _ _ _ Hs j) as [E|(e & T & _)]; [rewrite E in *; auto|]. revert G'.
  unfold hdtrue, finishing in *.
  (* most labels leave the outcomes alone and do not lead into a `finishing` situation from outside *)
  destruct T; phase_in HA; nsimpl; intros G';
    try (apply R; [|exact Hd]; destruct G' as [G|[[G1 G2]|G]]; try discriminate; auto; fail).
  - (* LMark *) apply dep_mark_values in H3. destruct G' as [G|[[_ G]|G]]; [auto| |]; destruct H3; congruence.
  - (* WSkipExec *) apply R; auto. right. right. destruct G' as [G|[[_ G]|G]]; try discriminate; destruct (st (nd s j)); auto; discriminate.
  - (* WDryExec *) congruence.
  - (* WCreateFail *) exfalso. destruct G' as [G|[[G _]|G]]; try discriminate. destruct HA; congruence.
  - (* WExecEnd *) destruct G' as [G|[[G _]|G]]; try discriminate; [injection G as ->; eauto|]. exfalso. destruct HA; congruence.
  - (* WAfter *)
    revert G'. destruct (after_cases c s j ok early (Hnorep j)) as [| [X|X] | | |];
      try destruct (fphase_cases c) as [-> | ->]; nsimpl;
      intros [G|[[G1 G2]|G]]; try discriminate; auto; try (exfalso; destruct HA; congruence).
  - (* WFinish *)
    apply R; auto. destruct G' as [G|[[G _]|G]]; try discriminate. destruct (st (nd s j)) eqn:E; auto; discriminate.
Qed.

Lemma reach_rinv s : Reach c s -> RInv s.
Proof.
  intros Hr. apply (reach_with_inv c Hnorep RInv); [|exact rinv_step|exact Hr]. intros i [G|[[G _]|G]]; discriminate G.
Qed.

Theorem finished_means_ran s : Reach c s -> dry c = false ->
  forall i, st (nd s i) = NSuccess -> exists fs, outs (nd s i) = true :: fs.
Proof. intros Hr Hd i Hs. apply (reach_rinv s Hr i); [right; right; exact Hs|exact Hd]. Qed.

End Stop.

(* C05: stop.  These hold for every configuration (repeating steps included, done channel or not). *)
Section StopGeneral.
Variable c : cfg.
Notation n := (nsteps c).

(* the worker's cancel test is the only way into PStarting, and it needs the flag not set *)
Lemma starting_back s l s' : canceled s = true -> step c s l = Some s' ->
  forall i, ph (nd s' i) = PStarting -> ph (nd s i) = PStarting.
Proof.
  intros Hc Hs j. destruct (step_node c _ _ _ Hs j) as [->|(e & T & _)]; [auto|].
  destruct T; nsimpl; auto; try discriminate; try congruence.
  intros X. destruct (after_nd_shape c s j ok early) as (Hp & _). rewrite X in Hp. unfold post_phase in Hp. intuition discriminate.
Qed.

(* C05_no_new_start: once the stop flag is set, a command only starts in a worker that had already passed its cancel
   test (phase PStarting) when the flag was set *)
Theorem no_new_start ls : forall s s', canceled s = true -> run c s ls = Some s' ->
  forall i, In (WExecStart i) ls -> ph (nd s i) = PStarting.
Proof.
  induction ls as [|l ls IH]; intros s s' Hc Hr i Hin; [destruct Hin|].
  simpl in Hr. destruct (step c s l) as [s1|] eqn:Hs; [|discriminate].
  destruct Hin as [->|Hin].
  - now apply exec_start_iff in Hs.
  - eapply starting_back; [exact Hc|exact Hs|]. eapply IH; [exact (proj1 (step_flags c _ _ _ Hs) Hc)|exact Hr|exact Hin].
Qed.

(* the invariant of the Signal queue (C05_signal_reaches): in a stopped run every non-repeating step whose worker is past its cancel test and whose node is
   still running is still in the queue of a Signal pass (nobody can take it out but the pass itself, which flips it
   to canceled) *)
Definition KInv (s : state) : Prop :=
  canceled s = true -> forall i, i < n -> (ph (nd s i) = PStarting \/ ph (nd s i) = PExec) ->
  st (nd s i) = NRunning -> repeat (steps c i) = false -> In i (sigq s).

Lemma kinv_step s l s' : KInv s -> step c s l = Some s' -> KInv s'.
Proof.
  intros HK Hs Hc j Hj Hp Hr Hrep. unfold KInv in HK.
  destruct (step_Step c _ _ _ Hs) as [l i x' e T| | |k| | | | | | | | ]; cbn [nd canceled sigq set_pc set_hst apply_eff] in *; auto.
  - (* a node moves *)
    rewrite nd_apply_eff, nd_set_nd in Hp, Hr.
    assert (Hc0 : canceled s = true) by (destruct e; exact Hc).
    destruct (Nat.eqb_spec j i) as [->|Hne].
    + (* it is past the cancel test already: the command starts *)
      destruct T; nsimpl; try (destruct Hp; discriminate); try congruence; try (cbn; apply HK; auto; rewrite H; auto).
      * apply dep_mark_values in H3. destruct H3; congruence.
      * destruct (after_nd_shape c s i ok early) as (Hpp & _). unfold post_phase in Hpp. destruct Hp as [X|X]; rewrite X in Hpp; intuition discriminate.
    + specialize (HK Hc0 j Hj Hp Hr Hrep). destruct T; cbn; auto; try (destruct (after_err c s i ok early); exact HK).
      (* the pass pops another node *)
      destruct (sigq s) as [|h q]; [discriminate|]. injection H as ->. destruct HK; [congruence|assumption].
  - (* the flag is set: a new pass over all nodes *) apply in_or_app. right. apply in_seq. lia.
  - (* the pass goes by a node that is repeating or not running *)
    specialize (HK Hc j Hj Hp Hr Hrep). rewrite H in *. destruct HK as [<-|HK]; [|exact HK]. destruct H0; congruence.
Qed.

Theorem signal_reaches s : Reach c s -> KInv s.
Proof. apply (reach_preserves c KInv); [intros H; discriminate H|]. intros s0 l s1 HK Hs. eapply kinv_step; eauto. Qed.

(* the pass at a non-repeating step whose command executes: the signal is forwarded (Kill), the command goes on
   executing, and a node still running is flipped to canceled - also when an earlier pass has already flipped it
   (fix 767545b, F5a) *)
Lemma signal_at_exec s k i q s' : Inv c s -> sigq s = i :: q -> ph (nd s i) = PExec ->
  repeat (steps c i) = false -> step c s (SigNode k) = Some s' ->
  k = true /\ ph (nd s' i) = PExec /\ (st (nd s i) = NRunning -> st (nd s' i) = NCancel).
Proof.
  intros HI Hq Hp Hrep Hs. pose proof (iD _ _ HI i) as [_ Hatt]. pose proof (iA _ _ HI i) as HA.
  unfold coherent in HA. rewrite Hp in Hatt, HA. cbn [step] in Hs. rewrite Hq, Hrep in Hs.
  assert (Ha : (0 <? att (nd s i)) = true) by (apply Nat.ltb_lt; lia).
  destruct HA as [Hst|Hst]; rewrite Hst, ?Ha, ?Hp in Hs; destruct k; cbn in Hs; try discriminate; injection Hs as <-.
  - rewrite nd_set_same. auto.
  - cbn [nd]. auto.
Qed.

End StopGeneral.
