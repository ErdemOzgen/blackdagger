(* Soundness of the trace acceptor: an accepted trace is the visible projection of an execution of the model
   that ends in Done with the observed final node table, Schedule error and Status.  Hence every theorem proved for
   all executions (Props/C01 C02 C03 C15) applies to every accepted run of the real scheduler.
   (Completeness is what the correspondence run measures: a real trace that is rejected is a break.) *)
From Coq Require Import List Arith Bool ZArith PeanoNat.
Import ListNotations.
From BD.Sched Require Import Model Step Replay.

Inductive vevent := VStart (i : nat) | VEnd (i : nat) (ok : bool).

Definition vis_of (l : label) : option vevent :=
  match l with
  | WExecStart i => Some (VStart i)
  | WExecEnd i ok => Some (VEnd i ok)
  | _ => None
  end.
Fixpoint vis (ls : list label) : list vevent :=
  match ls with
  | [] => []
  | l :: ls' => match vis_of l with Some v => v :: vis ls' | None => vis ls' end
  end.
(* the visible projection is about COMMANDS (entries and exits of Run): an attempt that ended because its command could
   not be created is an event of the harness (the Creator was called) but contributes nothing to it *)
Definition untime1 (e : event) : list vevent :=
  match e with EStart i _ => [VStart i] | EEnd i ok _ => [VEnd i ok] | ECreateFail _ _ => [] end.
Definition untime (tr : list event) : list vevent := flat_map untime1 tr.

Lemma vis_app a b : vis (a ++ b) = vis a ++ vis b.
Proof. induction a as [|l a IH]; simpl; [reflexivity|]. destruct (vis_of l); simpl; rewrite IH; reflexivity. Qed.

Section S.
Variable c : cfg.
Variable ivl : nat -> Z.
Variable eps : Z.
Variable fin : nat -> fin_entry.

Definition good (r : rstate) : Prop := run c (init c) (rev (lbl r)) = Some (ms r).
Definition visl (r : rstate) : list vevent := vis (rev (lbl r)).

Lemma app_good r l r' : good r -> app c r l = Some r' -> good r' /\ visl r' = visl r ++ vis [l].
Proof.
  unfold good, app, visl. intros Hg H. destruct (step c (ms r) l) eqn:Hs; [|discriminate].
  injection H as <-. cbn [lbl ms]. split.
  - simpl. rewrite run_app, Hg. simpl. now rewrite Hs.
  - simpl. apply vis_app.
Qed.

Definition keeps (f : rstate -> rstate) : Prop := forall r, good r -> good (f r) /\ visl (f r) = visl r.

Lemma keeps_id : keeps (fun r => r). Proof. intros r H. auto. Qed.
Lemma keeps_comp f g : keeps f -> keeps g -> keeps (fun r => g (f r)).
Proof. intros Hf Hg r H. destruct (Hf r H) as [A B]. destruct (Hg _ A) as [C D]. split; auto. congruence. Qed.

Lemma keeps_try l : vis_of l = None -> keeps (fun r => try c r l).
Proof.
  intros Hh r Hg. unfold try. destruct (app c r l) eqn:Ha; [|auto].
  destruct (app_good r l r0 Hg Ha) as [H1 H2]. split; auto. rewrite H2. simpl. rewrite Hh. apply app_nil_r.
Qed.

Lemma keeps_try2 l1 l2 : vis_of l1 = None -> vis_of l2 = None -> keeps (fun r => try2 c r l1 l2).
Proof.
  intros H1 H2 r Hg. unfold try2. destruct (app c r l1) eqn:Ha; [|auto].
  destruct (app_good r l1 r0 Hg Ha) as [G1 V1].
  destruct (app c r0 l2) eqn:Hb; [|auto].
  destruct (app_good r0 l2 r1 G1 Hb) as [G2 V2]. split; auto.
  rewrite V2, V1. simpl. rewrite H1, H2. rewrite !app_nil_r. reflexivity.
Qed.

(* the steps of a visit only ever `try` hidden labels, guarded by tests on the state *)
Lemma st_after_keeps i : keeps (st_after c i).
Proof. intros r. unfold st_after. destruct (ph (nd (ms r) i)); first [apply keeps_id|now apply keeps_try]. Qed.
Lemma st_finish_keeps i : keeps (st_finish c i).
Proof. intros r. unfold st_finish. destruct (ph (nd (ms r) i)); first [apply keeps_id|now apply keeps_try]. Qed.
Lemma st_wake_keeps now i : keeps (st_wake c ivl eps now i).
Proof.
  intros r. unfold st_wake. destruct (ph (nd (ms r) i)); try apply keeps_id.
  destruct (_ <=? _)%Z; [now apply keeps_try|apply keeps_id].
Qed.
Lemma st_mark_keeps i : keeps (st_mark c fin i).
Proof.
  intros r. unfold st_mark. destruct (st (nd (ms r) i)); try apply keeps_id.
  destruct (guided_mark c fin (ms r) i); [now apply keeps_try|apply keeps_id].
Qed.
Lemma st_hidden_keeps i : keeps (st_hidden c i).
Proof.
  intros r. unfold st_hidden. destruct (st (nd (ms r) i)); try apply keeps_id.
  destruct (negb _); [now apply keeps_try2|]. destruct (_ || _); [now apply keeps_try2|apply keeps_id].
Qed.
Lemma st_dry_keeps i : keeps (st_dry c i).
Proof.
  intros r. unfold st_dry. destruct (ph (nd (ms r) i)); try apply keeps_id. destruct (dry c); [now apply keeps_try|apply keeps_id].
Qed.
Lemma st_setup_keeps i : keeps (st_setup c i).
Proof.
  intros r. unfold st_setup. destruct (ph (nd (ms r) i)); try apply keeps_id. destruct (_ || _); [|apply keeps_id].
  apply (keeps_comp (fun r => try c r (WSetupFail i)) (fun r => try c r (WTest i))); now apply keeps_try.
Qed.

Lemma pass_node_keeps now i : keeps (fun r => pass_node c ivl eps fin now r i).
Proof.
  unfold pass_node.
  eapply keeps_comp; [|apply st_finish_keeps]. eapply keeps_comp; [|apply st_after_keeps].
  eapply keeps_comp; [|apply st_dry_keeps]. eapply keeps_comp; [|apply st_setup_keeps].
  eapply keeps_comp; [|apply st_hidden_keeps]. eapply keeps_comp; [|apply st_mark_keeps].
  eapply keeps_comp; [|apply st_wake_keeps]. eapply keeps_comp; [|apply st_finish_keeps]. apply st_after_keeps.
Qed.

(* generic in the visited function, so that no conversion ever looks inside pass_node *)
Lemma fold_keeps (f : rstate -> nat -> rstate) (Hf : forall i, keeps (fun r => f r i)) l : keeps (fold_left f l).
Proof.
  induction l as [|i l IH]; cbn [fold_left]; [apply keeps_id|]. exact (keeps_comp _ _ (Hf i) IH).
Qed.

Lemma pass_keeps now : keeps (pass c ivl eps fin now).
Proof. apply fold_keeps. intros i. apply pass_node_keeps. Qed.

Lemma norm_keeps fuel now : keeps (norm c ivl eps fin fuel now).
Proof.
  induction fuel as [|f IH]; cbn [norm]; [apply keeps_id|]. intros r Hg.
  destruct (_ =? _); [apply pass_keeps; exact Hg|]. exact (keeps_comp _ _ (pass_keeps now) IH r Hg).
Qed.

Lemma feed_good r e r' : good r -> feed c ivl eps fin r e = Some r' -> good r' /\ visl r' = visl r ++ untime1 e.
Proof.
  intros Hg Hf. destruct e as [i t|i ok t|i t]; cbn [feed] in Hf.
  - destruct (norm_keeps (2 * nsteps c + 2) t r Hg) as [G0 V0].
    destruct (app c _ (LCommit i)) as [r1|] eqn:H1; [|discriminate].
    destruct (app c r1 (LLaunch i)) as [r2|] eqn:H2; [|discriminate].
    destruct (app c r2 (WTest i)) as [r3|] eqn:H3; [|discriminate].
    destruct (app_good _ _ _ G0 H1) as [G1 V1]. destruct (app_good _ _ _ G1 H2) as [G2 V2].
    destruct (app_good _ _ _ G2 H3) as [G3 V3]. destruct (app_good _ _ _ G3 Hf) as [G4 V4].
    split; auto. rewrite V4, V3, V2, V1, V0. simpl. rewrite !app_nil_r. reflexivity.
  - destruct (app c r (WExecEnd i ok)) as [r1|] eqn:H1; [|discriminate].
    destruct (app_good _ _ _ Hg H1) as [G1 V1]. injection Hf as <-.
    unfold good, visl in *. cbn [lbl ms]. split; auto.
  - destruct (norm_keeps (2 * nsteps c + 2) t r Hg) as [G0 V0].
    destruct (app c _ (LCommit i)) as [r1|] eqn:H1; [|discriminate].
    destruct (app c r1 (LLaunch i)) as [r2|] eqn:H2; [|discriminate].
    destruct (app c r2 (WTest i)) as [r3|] eqn:H3; [|discriminate].
    destruct (app c r3 (WCreateFail i)) as [r4|] eqn:H4; [|discriminate].
    destruct (app_good _ _ _ G0 H1) as [G1 V1]. destruct (app_good _ _ _ G1 H2) as [G2 V2].
    destruct (app_good _ _ _ G2 H3) as [G3 V3]. destruct (app_good _ _ _ G3 H4) as [G4 V4].
    injection Hf as <-. unfold good, visl in *. cbn [lbl ms]. split; [exact G4|].
    rewrite V4, V3, V2, V1, V0. simpl. rewrite !app_nil_r. reflexivity.
Qed.

Lemma feed_all_good es : forall r idx r', good r -> feed_all c ivl eps fin r es idx = (r', None) ->
  good r' /\ visl r' = visl r ++ untime es.
Proof.
  induction es as [|e es IH]; simpl; intros r idx r' Hg H.
  - injection H as <-. split; auto. rewrite app_nil_r. reflexivity.
  - destruct (feed c ivl eps fin r e) as [r1|] eqn:Hf; [|discriminate].
    destruct (feed_good _ _ _ Hg Hf) as [G1 V1]. destruct (IH _ _ _ G1 H) as [G2 V2].
    split; auto. rewrite V2, V1, <- app_assoc. reflexivity.
Qed.

Lemma good_init : good (r_init c).
Proof. reflexivity. Qed.

Theorem accept_sound tr err status : accept c ivl eps fin tr err status = true ->
  exists ls s, run c (init c) ls = Some s /\ vis ls = untime tr /\ pc s = LDone /\
               final_ok c fin s = true /\ lasterr s = err /\ ocode (overall c s) = status.
Proof.
  unfold accept, replay. intros H.
  destruct (feed_all c ivl eps fin (r_init c) tr 0) as [r o] eqn:Hfa. destruct o; [discriminate|].
  destruct (feed_all_good tr _ _ _ good_init Hfa) as [G0 V0].
  destruct (norm_keeps (2 * nsteps c + 3) big r G0) as [G1 V1].
  destruct (app c _ LExit) as [r1|] eqn:H1; [|discriminate].
  destruct (app c r1 HBegin) as [r2|] eqn:H2; [|discriminate].
  destruct (app c r2 HFinish) as [r3|] eqn:H3; [|discriminate].
  destruct (app_good _ _ _ G1 H1) as [G2 V2]. destruct (app_good _ _ _ G2 H2) as [G3 V3].
  destruct (app_good _ _ _ G3 H3) as [G4 V4].
  destruct (negb (final_ok c fin (ms r3))) eqn:Hfo; [discriminate|].
  destruct (negb (Bool.eqb (lasterr (ms r3)) err && (ocode (overall c (ms r3)) =? status))) eqn:Hes; [discriminate|].
  apply negb_false_iff in Hfo. apply negb_false_iff in Hes. apply andb_true_iff in Hes. destruct Hes as [He Hst].
  exists (rev (lbl r3)), (ms r3). split; [exact G4|].
  split. { unfold visl in *. rewrite V4, V3, V2, V1, V0. simpl. rewrite !app_nil_r. reflexivity. }
  split.
  { unfold app in H3. destruct (step c (ms r2) HFinish) eqn:Hs; [|discriminate]. injection H3 as <-. cbn [ms].
    cbn [step] in Hs. destruct (pc (ms r2)); try discriminate. destruct todo; try discriminate.
    destruct cur; try discriminate. injection Hs as <-. reflexivity. }
  split; [exact Hfo|]. split; [apply Bool.eqb_prop; exact He|apply Nat.eqb_eq; exact Hst].
Qed.

End S.
