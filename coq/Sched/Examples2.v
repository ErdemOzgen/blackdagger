(* Witnesses for C04 / C05: executions of the model on the inputs that exhibited the defects F4a, F5a, F5c, F5d of the
   pinned code (each was observed on the real scheduler by the driver; all are repaired in /repo and the model follows
   the repaired code), non-vacuity examples, and the execution that shows why C01 / C15 need their premise norepeat. *)
From Coq Require Import List Arith Bool Lia.
Import ListNotations.
From BD.Sched Require Import Model Proofs ProofsFinal ProofsStop Examples.

Definition allh : handler -> bool := fun _ => true.
Definition one_step (nsig : nat) (hastmo : bool) : cfg := mkcfgx [sd [] 0] 0 false true nsig hastmo allh.
Definition two_steps : cfg := mkcfgx [sd [] 0; sd [] 0] 0 false true 1 false allh.

(* F4a (repaired by 08917f8; before, the run was relabelled canceled: findings/C04-F4a-stop-during-handlers.json): the
   step fails, onFailure runs, a stop request arrives while it runs; the run stays reported failed - the outcome the
   handlers ran for. *)
Definition f4a_pre : list label := launch 0 ++ [WExecEnd 0 false; WAfter 0 false; LExit].
Definition f4a_post : list label :=
  [HStart HFailure; SigFlag; SigNode false; HEnd HFailure true; HStart HExit; HEnd HExit true; HFinish].

(* F5c (repaired by ac08004; before, node and run were reported finished and onSuccess ran:
   findings/C04-F5c-finished-without-running.json): the stop arrives when the loop has committed the step; the step is
   still launched, its worker skips the command, node and run end canceled, onCancel then onExit run. *)
Definition f5c_exec : list label :=
  [LCommit 0; SigFlag; SigNode false; LLaunch 0; WSkipExec 0; WFinish 0; LExit; HBegin; HStart HCancel;
   HEnd HCancel true; HStart HExit; HEnd HExit true; HFinish].

(* F5a (repaired by 767545b; before, node.signal only acted on status running and the escalation was a no-op:
   findings/C05-F5a-escalation-noop.json): the first Signal flips the executing node to canceled; the second (the
   SIGKILL escalation) still forwards its signal, because the command is still executing. *)
Definition f5a_exec : list label := launch 0 ++ [SigFlag; SigNode true; SigFlag].

(* F5d (repaired by 246fa0b; before, the handlers' commands were refused and they were marked failed without running:
   findings/C05-F5d-timeout-handlers-refused.json): after the DAG timeout onFailure and onExit are chosen and run. *)
Definition f5d_pre : list label := launch 0 ++ [Timeout; WExecEnd 0 false; WAfter 0 false; LExit].
Definition f5d_post : list label := [HStart HFailure; HEnd HFailure true; HStart HExit; HEnd HExit true; HFinish].

(* a clean stop of two executing steps: both are signalled, both end canceled, the run is canceled, onCancel then onExit *)
Definition stop2_pre : list label :=
  launch 0 ++ launch 1 ++ [SigFlag; SigNode true; SigNode true; WExecEnd 0 false; WAfter 0 false;
                           WExecEnd 1 false; WAfter 1 false; LExit].
Definition stop2_post : list label := [HStart HCancel; HEnd HCancel true; HStart HExit; HEnd HExit true; HFinish].
Lemma stop2_ok : donech two_steps = true /\ norepeat two_steps.
Proof. split; [reflexivity|]. eapply norepeat_steps; reflexivity. Qed.
Lemma stop2_witness :
  exists s1 s2 s3, run two_steps (init two_steps) stop2_pre = Some s1 /\
    step two_steps s1 HBegin = Some s2 /\ run two_steps s2 stop2_post = Some s3 /\
    pc s3 = LDone /\ dry two_steps = false /\
    overall two_steps s1 = OCancel /\ hstarts stop2_post = [HCancel; HExit] /\
    map (fun i => st (nd s3 i)) [0; 1] = [NCancel; NCancel] /\ pc s1 = LExited.
Proof. apply ex_run3. vm_compute. repeat split; reflexivity. Qed.

Lemma one_step_ok ns tm : donech (one_step ns tm) = true /\ norepeat (one_step ns tm).
Proof. split; [reflexivity|]. eapply norepeat_steps; reflexivity. Qed.

(* The done == nil scenario (repaired by 614b59e; before, the step was reported finished although its only attempt had
   failed: findings/C04-done-nil-finished-after-failure.json).  Schedule is called without a done channel; the command
   fails on its own after the stop flag is set and before the Signal pass reaches its node; the worker labels the node
   canceled, and the final relabelling running -> finished no longer applies. *)
Definition one_step_nodone : cfg := mkcfgx [sd [] 0] 0 false false 1 false allh.
Definition done_nil_exec : list label :=
  launch 0 ++ [SigFlag; WExecEnd 0 false; WAfter 0 false; WFinish 0; SigNode false].

(* Why C01 / C15 carry the premise norepeat.  A step with repeatPolicy and continueOn.failure whose command fails is
   labelled failed and keeps repeating (scheduler.go: `execErr == nil || ContinueOn.Failure`): it no longer counts as
   running and its dependents are released although its command will start again.  With maxActiveRuns = 1 two commands
   execute at once, and the dependency's command starts again after the dependent's. *)
Definition rep_cof : stepdef :=
  {| deps := []; cof := true; cos := false; rlimit := 0; pre := true; sfail := false; repeat := true; cfails := 0 |}.
Definition repeat_cof_cfg : cfg := mkcfgx [rep_cof; sd [0] 0] 1 false true 0 false allh.
Definition repeat_cof_pre : list label :=
  launch 0 ++ [WExecEnd 0 false; WAfter 0 false; LCommit 1; LLaunch 1; WTest 1].
Definition repeat_cof_post : list label := [WRepeatWake 0; WTest 0; WExecStart 0].
Lemma repeat_cof_breaks_order_and_cap :
  maxActive repeat_cof_cfg = 1 /\ donech repeat_cof_cfg = true /\
  exists s1 s2 s3, run repeat_cof_cfg (init repeat_cof_cfg) repeat_cof_pre = Some s1 /\
    step repeat_cof_cfg s1 (WExecStart 1) = Some s2 /\ run repeat_cof_cfg s2 repeat_cof_post = Some s3 /\
    In 0 (deps (steps repeat_cof_cfg 1)) /\ In (WExecStart 0) repeat_cof_post /\
    st (nd s1 0) = NError /\ ph (nd s1 0) = PRepeatWait /\
    ph (nd s3 0) = PExec /\ ph (nd s3 1) = PExec /\ exec_count repeat_cof_cfg s3 = 2 /\ running_count repeat_cof_cfg s3 = 1.
Proof. split; [reflexivity|]. split; [reflexivity|]. apply ex_run3. vm_compute. repeat split; auto. Qed.

(* A stop during a retry interval.  The step failed once and waits to retry (state running); the Signal pass labels it
   canceled; when the interval is over the worker resets the node unconditionally (setStatus(None), scheduler.go: the
   retry arm) and the loop launches nothing any more.  The run ends canceled, onCancel and onExit run - and the node
   ends "not started" with retry count 1 although it was attempted once (a question of C08, not of C05).  Observed as
   such on the real scheduler (stream `stop` of the driver). *)
Definition retry_one : cfg := mkcfgx [sd [] 2] 0 false true 1 false allh.
Definition stop_in_retry_wait : list label :=
  launch 0 ++ [WExecEnd 0 false; WAfter 0 false; SigFlag; SigNode true; WRetryWake 0; LExit; HBegin; HStart HCancel;
               HEnd HCancel true; HStart HExit; HEnd HExit true; HFinish].

(* A command that cannot be created.  Step 0 (retry limit 1, continueOn.failure): the first attempt ends without a
   command (WCreateFail); the worker waits out the retry interval with the node still running, so its dependent, step
   1, is refused by the loop and the slot stays taken; the second attempt succeeds, only then step 1 is launched.
   (Stream `cfail` of the driver checks this on the real scheduler.) *)
Definition cf_step : stepdef :=
  {| deps := []; cof := true; cos := false; rlimit := 1; pre := true; sfail := false; repeat := false; cfails := 1 |}.
Definition cfail_cfg : cfg := mkcfgx [cf_step; sd [0] 0] 1 false true 0 false allh.
Definition cfail_pre : list label := [LCommit 0; LLaunch 0; WTest 0; WCreateFail 0; WAfter 0 false].
Definition cfail_post : list label :=
  [WRetryWake 0] ++ launch 0 ++ [WExecEnd 0 true; WAfter 0 false; WFinish 0] ++ launch 1.
Lemma cfail_retry_ok :
  norepeat cfail_cfg /\ maxActive cfail_cfg = 1 /\
  exists s1 s2, run cfail_cfg (init cfail_cfg) cfail_pre = Some s1 /\
    st (nd s1 0) = NRunning /\ ph (nd s1 0) = PRetryWait /\ rc (nd s1 0) = 1 /\ outs (nd s1 0) = [false] /\
    step cfail_cfg s1 (LCommit 1) = None /\ step cfail_cfg s1 (WExecStart 0) = None /\
    run cfail_cfg s1 cfail_post = Some s2 /\
    st (nd s2 0) = NSuccess /\ rc (nd s2 0) = 1 /\ att (nd s2 0) = 2 /\ outs (nd s2 0) = [true; false] /\
    ph (nd s2 1) = PExec.
Proof.
  split; [eapply norepeat_steps; reflexivity|]. split; [reflexivity|].
  do 2 eexists. split; [vm_compute; reflexivity|].
  repeat (split; [vm_compute; reflexivity|]). vm_compute; reflexivity.
Qed.

(* A handler that cannot be set up (its stdout goes into a directory that does not exist): the step fails, onFailure is
   marked failed and not run, onExit still runs, last. *)
Definition hsf_cfg : cfg :=
  mkcfgy [sd [] 0] 0 false true 0 false allh (fun h => match h with HFailure => true | _ => false end).
Definition hsf_pre : list label := launch 0 ++ [WExecEnd 0 false; WAfter 0 false; LExit].
Definition hsf_post : list label := [HSetupFail HFailure; HStart HExit; HEnd HExit true; HFinish].
