(* Sched: what holds at the end of a run that was neither stopped nor timed out (C02_final_states, C03_exact).
   Invariant conjunct I6 (blocked / skipped nodes) of DESIGN.md A.2, and the attempt history of every node (outcomes
   versus status; not in A.2). *)
From Coq Require Import List Arith Bool Lia PeanoNat.
Import ListNotations.
From BD.Sched Require Import Model Proofs.

Definition allf (l : list bool) : Prop := forallb negb l = true.
Lemma allf_cons b l : allf (b :: l) <-> b = false /\ allf l.
Proof. unfold allf. cbn [forallb]. rewrite andb_true_iff, negb_true_iff. reflexivity. Qed.

Section Final.
Variable c : cfg.
Hypothesis Hnorep : norepeat c.
Notation n := (nsteps c).
Notation step := (step c).
Notation Inv := (Inv c).
Notation okterm := (okterm c).

Definition quiet (s : state) : Prop := canceled s = false /\ timedout s = false.

(* the flags are monotone: a quiet state has a quiet past *)
Lemma quiet_back s l s' : step s l = Some s' -> quiet s' -> quiet s.
Proof.
  intros Hs [Hc Ht]. destruct (step_flags c _ _ _ Hs) as (Fc & Ft & _). unfold quiet.
  destruct (canceled s); [now rewrite Fc in Hc|]. destruct (timedout s); [now rewrite Ft in Ht|]. auto.
Qed.

(* unless the run is being stopped, a node with a final status has no worker under way *)
Lemma terminal_no_worker s i : Inv s -> canceled s = false -> terminal (st (nd s i)) = true -> active (ph (nd s i)) = false.
Proof.
  intros HI Hc Ht. destruct (active (ph (nd s i))) eqn:A; [|reflexivity]. rewrite (iG _ _ HI Hc i A) in Ht. discriminate.
Qed.

(* the mark a blocking dependency gives does not change while the run is quiet *)
Lemma step_mark_stable s l s' : Inv s -> step s l = Some s' -> quiet s' ->
  forall d m, dep_mark c s d = Some m -> dep_mark c s' d = Some m.
Proof.
  intros HI Hs Hq d m Hd. destruct (quiet_back _ _ _ Hs Hq) as [Hc0 _]. unfold dep_mark in *.
  destruct (step_node c _ _ _ Hs d) as [->|(e & T & _)]; [exact Hd|].
  assert (Ht : terminal (st (nd s d)) = true) by (destruct (st (nd s d)); try discriminate Hd; reflexivity).
  destruct (settled_moves c s d l _ e HI T Ht (terminal_no_worker s d HI Hc0 Ht)) as (_ & _ & -> & _). exact Hd.
Qed.

(* okterm and a blocking mark exclude each other *)
Lemma okterm_mark_none s d : okterm s d -> dep_mark c s d = None.
Proof.
  unfold Proofs.okterm, dep_mark. intros [H|[[H H']|[H H']]]; rewrite H; try rewrite H'; reflexivity.
Qed.

(* some dependency of i blocks it, with mark m *)
Definition blocker (s : state) (i : nat) (m : nstatus) : Prop :=
  exists d, In d (deps (steps c i)) /\ dep_mark c s d = Some m.

Definition ran_ok (x : node) : Prop :=        (* the latest attempt succeeded, all earlier ones failed *)
  if dry c then att x = 0 /\ outs x = []
  else exists fs, outs x = true :: fs /\ allf fs /\ length (outs x) = att x /\ att x = S (rc x).

(* What is known of ONE node x (of step i) in a run that was neither stopped nor timed out, phase by phase: no attempt
   where none is possible, the precondition met once launched, and the attempt history - outs lists the outcomes,
   latest first, all but the latest failed, the latest agreeing with the status; a node the readiness gate stopped was
   never attempted and has its reason.  The reason speaks of OTHER nodes: B m = "some dependency blocks with mark m",
   O d = "dependency d permits".  They are parameters so that the clause mentions the rest of the table only through two
   monotone predicates: qnode_step shows the clause with B, O read on the table BEFORE the label and qnode_gen_mono
   carries it to the table after, blockers and permitting dependencies being stable. *)
Definition qnode_gen (i : nat) (x : node) (B : nstatus -> Prop) (O : nat -> Prop) : Prop :=
  ((setup_fails c i = true \/ dry c = true) -> att x = 0 /\ outs x = []) /\
  ((ph x <> PIdle \/ att x > 0) -> pre (steps c i) = true) /\
  match ph x with
  | PIdle =>
      match st x with
      | NNone => allf (outs x) /\ length (outs x) = att x
      | NCancel => att x = 0 /\ rc x = 0 /\ outs x = [] /\ B NCancel
      | NSkipped => att x = 0 /\ rc x = 0 /\ outs x = [] /\
                    (B NSkipped \/ (pre (steps c i) = false /\ forall d, In d (deps (steps c i)) -> O d))
      | _ => True
      end
  | PSetup => allf (outs x) /\ length (outs x) = att x
  | PStarting | PRetryWait => allf (outs x) /\ length (outs x) = att x /\ setup_fails c i = false
  | PExec => allf (outs x) /\ S (length (outs x)) = att x /\ setup_fails c i = false /\ dry c = false
  | PEnded ok =>
      setup_fails c i = false /\
      if dry c then ok = true /\ att x = 0 /\ outs x = []
      else exists fs, outs x = ok :: fs /\ allf fs /\ length (outs x) = att x
  | PPost =>
      match st x with
      | NRunning => ran_ok x /\ setup_fails c i = false
      | NError => setup_fails c i = false ->
                  dry c = false /\ allf (outs x) /\ length (outs x) = att x /\
                  att x = S (rc x) /\ rc x = rlimit (steps c i)
      | NCancel => False
      | _ => True
      end
  | PGone =>
      match st x with
      | NSuccess => ran_ok x /\ setup_fails c i = false
      | NError => setup_fails c i = false ->
                  dry c = false /\ allf (outs x) /\ length (outs x) = att x /\
                  att x = S (rc x) /\ rc x = rlimit (steps c i)
      | NCancel | NRunning => False
      | _ => True
      end
  | PRepeatWait => True
  end.

Definition qnode (s : state) (i : nat) : Prop := qnode_gen i (nd s i) (blocker s i) (okterm s).
(* the invariant of quiet runs (I6 and the attempt histories) *)
Definition QInv (s : state) : Prop := quiet s -> forall i, qnode s i.

Lemma qnode_gen_mono i x (B B' : nstatus -> Prop) (O O' : nat -> Prop) :
  (forall m, B m -> B' m) -> (forall d, O d -> O' d) -> qnode_gen i x B O -> qnode_gen i x B' O'.
Proof.
  unfold qnode_gen. intros Hb Ho (H1 & H2 & H3). split; [exact H1|]. split; [exact H2|].
  destruct (ph x); auto. destruct (st x); auto.
  - destruct H3 as (A1 & A2 & A3 & A4). auto.
  - destruct H3 as (A1 & A2 & A3 & [A4|[A4 A5]]); repeat split; auto.
Qed.

(* per node: the quiet-run facts of node j are preserved by every label (they depend on the other nodes only through
   blockers and permitting dependencies, which are stable) *)
Lemma qnode_step s l s' j : Inv s -> quiet s' -> step s l = Some s' -> qnode s j -> qnode s' j.
Proof.
  intros HI Hq Hs HQ. destruct (quiet_back _ _ _ Hs Hq) as [Hc0 Ht0]. unfold qnode in *.
  apply (qnode_gen_mono j _ (blocker s j) _ (okterm s)).
  { intros m (d & Hin & Hd). exists d. split; [exact Hin|]. eapply step_mark_stable; eauto. }
  { intros d. eapply step_okterm_stable; eauto. }
  clear Hq. destruct (step_node c _ _ _ Hs j) as [->|(e & T & _)]; [exact HQ|].
  pose proof (iD _ _ HI j) as HD. pose proof (iA _ _ HI j) as HA. pose proof (iG _ _ HI Hc0 j) as HG.
  unfold counts, coherent in HD, HA. destruct HD as [HD0 HD]. unfold qnode_gen in *. destruct HQ as (Q1 & Q2 & Q3).
  (* stop, deadline and repeat labels do not occur in a quiet run, a worker on its way has its precondition met and
     finds its node running; of the three clauses the first two are as before unless the label is an attempt *)
  destruct T; phase_in HD; phase_in HA; phase_in Q3; phase_in HG; nsimpl;
    try contradiction; try (exfalso; congruence); try (rewrite (signal_flag c _ _ HI H) in Hc0; discriminate);
    try (assert (Hpre : pre (steps c j) = true)
           by (apply Q2; left; match goal with H : ph _ = _ |- _ => rewrite H; discriminate end));
    try specialize (HG eq_refl);
    try (destruct (after_cases c s j ok early (Hnorep j)) as [|[X|X]| ? [X|X]| |]; try congruence; nsimpl);
    (split; [try exact Q1|split; [auto|]]).
  - (* LMark: never attempted (a launched node has no blocking dependency), now blocked by d *)
    rewrite (coherent_none_idle _ (iA _ _ HI j) H1) in *. rewrite H1 in Q3.
    assert (Hatt : att (nd s j) = 0).
    { destruct (att (nd s j)) eqn:E; [reflexivity|]. exfalso.
      assert (Hl : launched s j) by (right; left; lia).
      pose proof (okterm_mark_none s d (iC _ _ HI j Hl d H2)). congruence. }
    assert (Hb : blocker s j m) by (exists d; auto).
    destruct (dep_mark_values c s d m H3); subst m; repeat split; auto; try lia; apply length_zero_iff_nil; lia.
  - (* LLaunch *) destruct (committed_idle c _ _ HI H) as (_ & Hst & Hph). rewrite Hph, Hst in Q3. exact Q3.
  - (* LSkipPre: never attempted, or its precondition would hold *)
    destruct (committed_idle c _ _ HI H) as (_ & Hst & Hph). rewrite Hph in *. rewrite Hst in Q3.
    assert (Hatt : att (nd s j) = 0).
    { destruct (att (nd s j)) eqn:E; [reflexivity|]. rewrite Q2 in H0 by (right; lia). discriminate. }
    repeat split; auto; try lia; [apply length_zero_iff_nil; lia|].
    right. split; auto. intros d Hd. apply (iC _ _ HI j); auto. right. right. exact H.
  - (* WSetupFail *) congruence.
  - (* WTest *) destruct Q3. auto.
  - (* WExecStart, first clause: set-up did not fail, the run is not dry *) intros [X|X]; [destruct Q3 as (_ & _ & Q5)|]; congruence.
  - (* ... its own clause *) destruct Q3 as (Q3 & Q4 & Q5). auto.
  - (* WDryExec *) destruct Q3 as (_ & _ & Q5). destruct (Q1 (or_intror H1)). rewrite H1. auto 7.
  - (* WCreateFail (an attempt that failed without a command), first clause *)
    intros [X|X]; [destruct Q3 as (_ & _ & Q5)|]; congruence.
  - (* ... its own clause *) destruct Q3 as (Q3 & Q4 & Q5). rewrite H1. split; [assumption|].
    exists (outs (nd s j)). repeat split; auto; simpl; lia.
  - (* WExecEnd, first clause *) intros [X|X]; destruct Q3 as (_ & _ & Q5 & Q6); congruence.
  - (* ... its own clause *) destruct Q3 as (Q3 & Q4 & Q5 & Q6). rewrite Q6. split; [assumption|].
    exists (outs (nd s j)). repeat split; auto; simpl; lia.
  - (* WAfter, the command succeeded *)
    rewrite HG. destruct Q3 as [Q3 Q4]. split; [|assumption]. unfold ran_ok. nsimpl. destruct (dry c) eqn:Edry; [tauto|].
    destruct Q4 as (fs & Q4 & Q5 & Q6). exists fs. repeat split; auto.
    destruct HD as [HD|[_ HD]]; [assumption|congruence].
  - (* ... it failed and is retried *)
    destruct Q3 as [Q3 Q4]. destruct (dry c) eqn:Edry; [destruct Q4; discriminate|].
    destruct Q4 as (fs & Q4 & Q5 & Q6). rewrite Q4. split; [apply allf_cons; auto|]. now rewrite <- Q4.
  - (* ... the retries are exhausted (the worker leaves, or goes on to the final check): the last outcome is a failure too *)
    destruct Q3 as [Q3 Q4]. destruct (dry c) eqn:Edry; [destruct Q4; discriminate|]. destruct Q4 as (fs & Q4 & Q5 & Q6).
    destruct (fphase_cases c) as [-> | ->]; intros _; (split; [reflexivity|]); rewrite Q4;
      (split; [apply allf_cons; auto|]); (split; [now rewrite <- Q4|]); (destruct HD as [HD|[_ HD]]; [lia|congruence]).
  - (* WRetryWake *) destruct Q3 as (Q3 & Q4 & _). auto.
  - (* WFinish *) destruct (st (nd s j)); auto; try exact Q3; destruct HA as [X|[X|X]]; discriminate.
Qed.

Lemma qinv_step s l s' : Inv s -> QInv s -> step s l = Some s' -> QInv s'.
Proof.
  intros HI HQ Hs Hq j. pose proof (quiet_back _ _ _ Hs Hq) as Hq0.
  eapply qnode_step; eauto.
Qed.

Lemma qinv_init : QInv (init c).
Proof.
  intros _ i. unfold qnode, qnode_gen. cbn [init nd init_node ph st att outs rc].
  split; [auto|]. split; [intros [X|X]; [congruence|lia]|]. split; reflexivity.
Qed.

Lemma run_qinv s ls s' : Inv s -> QInv s -> run c s ls = Some s' -> QInv s'.
Proof.
  intros HI HQ Hr. apply (run_preserves c (fun s => Inv s /\ QInv s)) with (s := s) (s' := s') (ls := ls); auto.
  intros s0 l s1 [A B] Hs. split; [eapply inv_step|eapply qinv_step]; eauto.
Qed.

Definition past_exit (p : lpc) : bool := match p with LExited | LHandlers _ _ | LDone => true | _ => false end.
Definition past_wait (p : lpc) : bool := match p with LHandlers _ _ | LDone => true | _ => false end.

(* the invariant of the scheduler's exit, in a quiet run: once the loop has left every node is terminal, and after
   wg.Wait() every worker is at rest *)
Definition XInv (s : state) : Prop :=
  quiet s ->
  (past_exit (pc s) = true -> forall i, i < n -> terminal (st (nd s i)) = true) /\
  (past_wait (pc s) = true -> forall i, i < n -> resting (nd s i) = true).

Lemma forallb_seq_lt (P : nat -> bool) k : forallb P (seq 0 k) = true -> forall i, i < k -> P i = true.
Proof. intros H i Hi. rewrite forallb_forall in H. apply H. apply in_seq. lia. Qed.

Lemma xinv_step s l s' : Inv s -> XInv s -> step s l = Some s' -> XInv s'.
Proof.
  intros HI HX Hs Hq. pose proof (quiet_back _ _ _ Hs Hq) as Hq0. specialize (HX Hq0).
  destruct Hq0 as [Hc0 _]. destruct HX as [HX1 HX2].
  destruct (step_Step c _ _ _ Hs) as [l i x' e T|i| | | | | | | | | | ]; cbn [pc nd set_pc set_hst apply_eff] in *;
    try discriminate; repeat match goal with H : pc s = _ |- _ => rewrite H in * end; cbn [past_exit past_wait] in *;
    try (split; intros X; try discriminate X; auto; fail).
  - (* a node moves: once the loop has left it is terminal already, and the only move left to it is its worker's return *)
    assert (Hpc : forall f : lpc -> bool, f LHead = false -> f (pc (apply_eff e (set_nd s i x'))) = true -> f (pc s) = true)
      by (intros f F; destruct e; cbn; auto; congruence).
    assert (Hmv : past_exit (pc s) = true -> i < n -> ph (nd s i) = PPost /\ st x' = st (nd s i)).
    { intros X Hi. pose proof (HX1 X i Hi) as Ht.
      destruct (settled_moves c s i l x' e HI T Ht (terminal_no_worker s i HI Hc0 Ht)) as (A & _ & B & _). auto. }
    rewrite nd_apply_eff. split; intros X j Hj; rewrite nd_set_nd; destruct (Nat.eqb_spec j i) as [->|_]; auto.
    + destruct (Hmv (Hpc past_exit eq_refl X) Hj) as [_ ->]. auto.
    + exfalso. apply (Hpc past_wait eq_refl) in X. destruct (Hmv ltac:(destruct (pc s); auto) Hj) as [A _].
      specialize (HX2 X i Hj). unfold resting in HX2. rewrite A in HX2. discriminate.
  - (* LExit *) split; intros X; [|discriminate X]. destruct H0 as [H0|H0]; [congruence|]. now apply forallb_seq_lt.
  - (* HBegin *) split; intros _; [auto|]. intros j Hj. exact (worker_gone_resting _ (forallb_seq_lt _ _ H0 j Hj)).
Qed.

Lemma xinv_init : XInv (init c).
Proof. intros _. cbn [init pc past_exit past_wait]. split; intros X; discriminate X. Qed.

Lemma reach_all_inv s : Reach c s -> Inv s /\ QInv s /\ XInv s.
Proof.
  apply (reach_with_inv c Hnorep (fun s => QInv s /\ XInv s) (conj qinv_init xinv_init)).
  intros s0 l s1 A [B C0] Hs. split; [eapply qinv_step|eapply xinv_step]; eauto.
Qed.

Definition blocking (s : state) (d : nat) : bool := match dep_mark c s d with Some _ => true | None => false end.
Definition blocked (s : state) (i : nat) : bool := existsb (blocking s) (deps (steps c i)).

Lemma blocked_iff s i : blocked s i = true <-> exists m, blocker s i m.
Proof.
  unfold blocked, blocking, blocker. rewrite existsb_exists. split.
  - intros (d & Hin & Hd). destruct (dep_mark c s d) as [m|] eqn:E; [|discriminate]. eauto.
  - intros (m & d & Hin & Hd). exists d. now rewrite Hd.
Qed.

Lemma blocked_false s i : blocked s i = false -> forall d, In d (deps (steps c i)) -> dep_mark c s d = None.
Proof.
  intros H d Hd. destruct (dep_mark c s d) as [m|] eqn:E; [|reflexivity].
  rewrite (proj2 (blocked_iff s i)) in H by (exists m, d; auto). discriminate.
Qed.

(* a step all of whose dependencies permit is not blocked *)
Lemma permitted_not_blocked s i : (forall d, In d (deps (steps c i)) -> okterm s d) -> blocked s i = false.
Proof.
  intros H. destruct (blocked s i) eqn:Eb; [|reflexivity]. apply blocked_iff in Eb. destruct Eb as (m & d & Hin & Hm).
  rewrite (okterm_mark_none s d (H d Hin)) in Hm. discriminate.
Qed.

(* what a runnable step's attempt history looks like at the end *)
Definition ran_to_end (s : state) (i : nat) : Prop :=
  let x := nd s i in
  exists last fs, outs x = last :: fs /\ allf fs /\ att x = length (outs x) /\ att x = S (rc x) /\
    (last = true -> st x = NSuccess) /\
    (last = false -> st x = NError /\ rc x = rlimit (steps c i)).

Lemma ran_to_end_status s i : ran_to_end s i -> att (nd s i) >= 1 /\ (st (nd s i) = NSuccess \/ st (nd s i) = NError).
Proof.
  intros (last & fs & E1 & _ & E3 & _ & E5 & E6). split; [rewrite E3, E1; simpl; lia|].
  destruct last; [left; auto|right; now apply E6].
Qed.

Definition final_clauses (s : state) (i : nat) : Prop :=
  (blocked s i = true ->
     att (nd s i) = 0 /\ ((st (nd s i) = NCancel /\ blocker s i NCancel) \/ (st (nd s i) = NSkipped /\ blocker s i NSkipped))) /\
  (blocked s i = false -> pre (steps c i) = false -> att (nd s i) = 0 /\ st (nd s i) = NSkipped) /\
  (blocked s i = false -> pre (steps c i) = true -> dry c = true -> att (nd s i) = 0 /\ st (nd s i) = NSuccess) /\
  (blocked s i = false -> pre (steps c i) = true -> dry c = false -> sfail (steps c i) = true ->
     att (nd s i) = 0 /\ st (nd s i) = NError) /\
  (blocked s i = false -> pre (steps c i) = true -> dry c = false -> sfail (steps c i) = false -> ran_to_end s i).

(* the five ways a node ends, with what decides between them.  final_clauses above - the form the statements of C02
   and C10 use - says the same as five implications: final_node_clauses *)
Inductive final_node (s : state) (i : nat) : Prop :=
| F_blocked : blocked s i = true -> att (nd s i) = 0 ->
    (st (nd s i) = NCancel /\ blocker s i NCancel) \/ (st (nd s i) = NSkipped /\ blocker s i NSkipped) -> final_node s i
| F_pre : blocked s i = false -> pre (steps c i) = false -> att (nd s i) = 0 -> st (nd s i) = NSkipped -> final_node s i
| F_dry : blocked s i = false -> pre (steps c i) = true -> dry c = true ->
    att (nd s i) = 0 -> st (nd s i) = NSuccess -> final_node s i
| F_setup : blocked s i = false -> pre (steps c i) = true -> dry c = false -> sfail (steps c i) = true ->
    att (nd s i) = 0 -> st (nd s i) = NError -> final_node s i
| F_ran : blocked s i = false -> pre (steps c i) = true -> dry c = false -> sfail (steps c i) = false ->
    ran_to_end s i -> final_node s i.

Lemma final_node_clauses s i : final_node s i -> final_clauses s i.
Proof. intros F. unfold final_clauses. repeat split; intros; destruct F; try congruence; auto. Qed.

(* the final state of ONE node, from the invariants and the quiet-run facts of that node (any start state) *)
Lemma final_states_node s i : Inv s -> XInv s -> qnode s i -> quiet s -> pc s = LDone -> i < n -> final_node s i.
Proof.
  intros HI HX HQ Hq Hpc Hi. destruct (HX Hq) as [HX1 HX2]. rewrite Hpc in *.
  specialize (HX1 eq_refl i Hi). specialize (HX2 eq_refl i Hi).
  pose proof (iA _ _ HI i) as HA. unfold coherent in HA. unfold qnode, qnode_gen in HQ. destruct HQ as (Q1 & Q2 & Q3).
  apply resting_phase in HX2. destruct HX2 as [Hp|Hp]; rewrite Hp in *.
  - (* never launched: stopped by the readiness gate *)
    destruct (st (nd s i)) eqn:Est; try discriminate HX1; try (exfalso; intuition discriminate);
      destruct Q3 as (A1 & _ & _ & A4).
    + apply F_blocked; auto. apply blocked_iff; eauto.
    + destruct A4 as [A4|[A4 A5]]; [apply F_blocked; auto; apply blocked_iff; eauto|].
      apply F_pre; auto. now apply permitted_not_blocked.
  - (* launched, its worker gone: no dependency blocks it, its precondition held *)
    assert (Hb : blocked s i = false) by (apply permitted_not_blocked, (iC _ _ HI i); left; congruence).
    assert (Hpre : pre (steps c i) = true) by (apply Q2; left; congruence).
    assert (Hsf : setup_fails c i = sfail (steps c i) && negb (dry c)) by reflexivity.
    destruct (st (nd s i)) eqn:Est; try discriminate HX1; try contradiction; try (exfalso; intuition discriminate).
    + (* failed: in the set-up, or with the retries used up *)
      destruct (dry c) eqn:Edry; [rewrite andb_false_r in Hsf; destruct (Q3 Hsf) as [X _]; discriminate X|].
      rewrite andb_true_r in Hsf. destruct (sfail (steps c i)) eqn:Esf; [apply F_setup; auto; apply Q1; auto|].
      destruct (Q3 Hsf) as (_ & B2 & B3 & B4 & B5). apply F_ran; auto. unfold ran_to_end. rewrite Est.
      destruct (outs (nd s i)) as [|o fs]; [simpl in B3; lia|]. apply allf_cons in B2. destruct B2 as [-> B2].
      exists false, fs. repeat split; auto; discriminate.
    + (* finished *)
      destruct Q3 as [Q3 Q4]. unfold ran_ok in Q3. rewrite Hsf in Q4.
      destruct (dry c) eqn:Edry; [apply F_dry; auto; apply Q3|]. rewrite andb_true_r in Q4.
      destruct Q3 as (fs & B1 & B2 & B3 & B4). apply F_ran; auto.
      exists true, fs. rewrite Est. repeat split; auto; discriminate.
Qed.

(* C02 from any start state (the initial one, the table of a retry): a node whose quiet-run facts hold at the start
   - e.g. a not-started node - ends, at Done without stop request or timeout, in the state C02 dictates; the blockers /
   permitters are read on the final table, whatever nodes were already finished or skipped at the start *)
Theorem final_node_from s0 ls s i : Inv s0 -> XInv s0 -> qnode s0 i ->
  run c s0 ls = Some s -> quiet s -> pc s = LDone -> i < n -> final_node s i.
Proof.
  intros HI HX HQ Hr Hq Hpc Hi.
  assert (H : Inv s /\ XInv s /\ (quiet s -> qnode s i)).
  { apply (run_preserves c (fun s => Inv s /\ XInv s /\ (quiet s -> qnode s i))) with (s := s0) (ls := ls); auto.
    intros s1 l s2 (A & B & C0) Hs. split; [eapply inv_step; eauto|]. split; [eapply xinv_step; eauto|].
    intros Hq2. apply (qnode_step s1 l s2 i A Hq2 Hs), C0. eapply quiet_back; eauto. }
  destruct H as (A & B & C0). apply final_states_node; auto.
Qed.

Lemma final_node_reach s : Reach c s -> quiet s -> pc s = LDone -> forall i, i < n -> final_node s i.
Proof.
  intros [ls Hr] Hq Hpc i Hi.
  apply (final_node_from (init c) ls s i); auto using inv_init, xinv_init. now apply qinv_init.
Qed.

Theorem final_states s : Reach c s -> quiet s -> pc s = LDone -> forall i, i < n -> final_clauses s i.
Proof. intros Hr Hq Hpc i Hi. now apply final_node_clauses, final_node_reach. Qed.

(* C03: runnable = no blocking dependency, precondition met, set-up possible *)
Definition runnable (s : state) (i : nat) : bool :=
  negb (blocked s i) && pre (steps c i) && negb (sfail (steps c i)).

Theorem exact_attempts s : Reach c s -> quiet s -> pc s = LDone -> dry c = false -> forall i, i < n ->
  (runnable s i = true ->
     exists last fs, outs (nd s i) = last :: fs /\ allf fs /\
       att (nd s i) = length (outs (nd s i)) /\ att (nd s i) = S (rc (nd s i)) /\
       att (nd s i) <= S (rlimit (steps c i)) /\
       (last = false -> att (nd s i) = S (rlimit (steps c i)))) /\
  (runnable s i = false -> att (nd s i) = 0).
Proof.
  intros Hr Hq Hpc Hdry i Hi. unfold runnable. destruct (C03_bounds c Hnorep s i Hr) as [Hb1 Hb2].
  destruct (final_node_reach s Hr Hq Hpc i Hi) as [B A _|B P A _|_ _ D _ _|B P _ S A _|B P _ S R];
    try congruence; rewrite B, ?P, ?S; cbn [negb andb]; (split; [try discriminate|try discriminate; auto]).
  intros _. destruct R as (last & fs & E1 & E2 & E3 & E4 & E5 & E6).
  exists last, fs. repeat split; auto; try lia. intros ->. destruct (E6 eq_refl) as [_ E7]. lia.
Qed.

End Final.
