(* Sched: every execution is finite (a measure that every label decreases) and the scheduler never gets stuck
   before Done (progress) - in particular the maxActiveRuns limit never prevents completion (C15), and a retry
   run terminates (C10).  DESIGN.md Appendix A.2, "Termination". *)
From Coq Require Import List Arith Bool Lia PeanoNat.
Import ListNotations.
From BD.Sched Require Import Model Proofs ProofsFinal.

Fixpoint sum_list (f : nat -> nat) (l : list nat) : nat :=
  match l with [] => 0 | a :: l' => f a + sum_list f l' end.

Lemma sum_list_map f l : sum_list f l = list_sum (map f l).
Proof. induction l as [|a l IH]; simpl; auto. Qed.

Lemma sum_ext f g l : (forall j, In j l -> f j = g j) -> sum_list f l = sum_list g l.
Proof. intros H. rewrite !sum_list_map. f_equal. now apply map_ext_in. Qed.

Section Term.
Variable c : cfg.
Hypothesis Hnorep : norepeat c.
Notation n := (nsteps c).
Notation step := (step c).

(* The weights: every label must strictly decrease the sum.  Along a worker's way the phase weights fall
   (7 > 6 > 5 > 4 > 2 > 0); a not-started node (9) outweighs a launched one (7) plus the 1 the loop counter regains
   when it goes back from LCommitted (7) to LHead (8); a retry uses up one of the 12s of rlimit - rc, which pays for the
   retry wait (4 + 12 > 11), and the wait pays for the reset to not-started (11 > 9); a repeat wait (8) pays for the
   next set-up (7); LExited (6) exceeds the longest handler list (2 * 2 + 1), each handler costing 2 in two steps of 1;
   a Signal call gives up n + 1 and queues n nodes. *)
Definition phw (x : node) : nat :=
  match ph x with
  | PIdle => match st x with NNone => 9 | _ => 0 end
  | PSetup => 7 | PStarting => 6 | PExec => 5 | PEnded _ => 4
  | PRetryWait => 11 | PRepeatWait => 8 | PPost => 2 | PGone => 0
  end.
Definition nodew (i : nat) (x : node) : nat := 12 * (rlimit (steps c i) - rc x) + phw x + stale x.
Definition pcw (p : lpc) : nat :=
  match p with
  | LHead => 8 | LCommitted _ => 7 | LExited => 6
  | LHandlers todo cur => 2 * length todo + (if cur then 0 else 1)
  | LDone => 0
  end.
Definition measure (s : state) : nat :=
  sum_list (fun i => nodew i (nd s i)) (seq 0 n) + pcw (pc s) + (S n) * sigleft s + length (sigq s)
  + (if timedout s then 0 else 1).

(* the bound: 12 per allowed retry + 9 per step, the loop, the Signal passes, the deadline *)
Definition bound : nat :=
  sum_list (fun i => 12 * rlimit (steps c i) + 9) (seq 0 n) + 8 + (S n) * sigs c + 1.

Lemma measure_init : measure (init c) = bound.
Proof.
  unfold measure, bound. cbn [init nd pc sigleft sigq timedout pcw length].
  assert (sum_list (fun i => nodew i init_node) (seq 0 n) = sum_list (fun i => 12 * rlimit (steps c i) + 9) (seq 0 n)) as ->.
  { apply sum_ext. intros j _. unfold nodew, phw. cbn. lia. }
  lia.
Qed.

(* the sum of the weights after node i is replaced: the node is in the table, or its weight is unchanged *)
Lemma sum_nodew_upd (s : state) i y : i < n \/ nodew i y = nodew i (nd s i) ->
  sum_list (fun j => nodew j (nd (set_nd s i y) j)) (seq 0 n) + nodew i (nd s i)
  = sum_list (fun j => nodew j (nd s j)) (seq 0 n) + nodew i y.
Proof.
  intros [Hi|E].
  - rewrite !sum_list_map.
    pose proof (list_sum_upd (fun j => nodew j (nd s j)) (fun j => nodew j (nd (set_nd s i y) j)) i (seq 0 n)) as H.
    cbv beta in H. rewrite nd_set_same in H. apply H; [apply seq_NoDup|apply in_seq; lia|].
    intros j Hne. rewrite nd_set_nd. apply Nat.eqb_neq in Hne. now rewrite Hne.
  - rewrite E. f_equal. apply sum_ext. intros j _. rewrite nd_set_nd. destruct (Nat.eqb_spec j i) as [->|]; [exact E|reflexivity].
Qed.

Lemma handlers_for_le s : length (handlers_for c s) <= 2.
Proof.
  unfold handlers_for.
  assert (Hf : forall (f : handler -> bool) l, length (filter f l) <= length l).
  { intros f l. induction l as [|a l IH]; simpl; [lia|]. destruct (f a); simpl; lia. }
  etransitivity; [apply Hf|]. destruct (overall c s); simpl; lia.
Qed.

(* every label strictly decreases the measure *)
Theorem step_measure s l s' : Inv c s -> step s l = Some s' -> measure s' < measure s.
Proof.
  intros HI Hs. unfold measure.
  destruct (step_Step c _ _ _ Hs) as [l i x' e T| | |k|k i q Hq| | | | | | | ];
    cbn [nd pc sigleft sigq timedout set_pc set_hst apply_eff];
    repeat match goal with H : pc s = _ |- _ => rewrite H end; cbn [pcw length]; try lia.
  - (* a node moves: its weight goes down by more than the loop counter may go up *)
    destruct (moved_state e s i x' _ eq_refl) as (-> & _ & _ & -> & -> & ->).
    rewrite nd_apply_eff. pose proof (sum_nodew_upd s i x') as Hw.
    remember (sum_list (fun j => nodew j (nd (set_nd s i x') j)) (seq 0 n)) as S1 eqn:E1.
    remember (sum_list (fun j => nodew j (nd s j)) (seq 0 n)) as S0 eqn:E0. clear E0 E1.
    pose proof (iA _ _ HI i) as HA. unfold coherent in HA. unfold nodew, phw in Hw. revert Hw.
    destruct T; phase_in HA; nsimpl; intros Hw;
      try (specialize (Hw ltac:(left; assumption)); rewrite ?H in Hw; nsimpl; lia).
    + (* LMark *) apply dep_mark_values in H3. rewrite (coherent_none_idle _ (iA _ _ HI i) H1), H1 in Hw.
      specialize (Hw (or_introl H)). destruct H3; subst m; lia.
    + (* LLaunch *) destruct (committed_idle c _ _ HI H) as (Hi & Hst & Hph). rewrite H, Hph, Hst in *. specialize (Hw (or_introl Hi)). cbn [pcw]. lia.
    + (* LSkipPre *) destruct (committed_idle c _ _ HI H) as (Hi & Hst & Hph). rewrite H, Hph, Hst in *. specialize (Hw (or_introl Hi)). cbn [pcw]. lia.
    + (* WAfter *) rewrite H in Hw. specialize (Hw (or_introl H0)). revert Hw.
      destruct (after_cases c s i ok early (Hnorep i)); try destruct (fphase_cases c) as [-> | ->]; nsimpl; intros Hw; lia.
    + (* Signal: the weight stays, the queue gets shorter *)
      rewrite H1 in Hw. specialize (Hw ltac:(right; destruct (ph (nd s i)); reflexivity)).
      destruct (sigq s); [discriminate|]. cbn [tl length]. lia.
  - (* SigFlag *) rewrite H, app_length, seq_length. nia.
  - (* the pass goes by *) rewrite Hq. cbn [tl length]. lia.
  - (* Timeout *) rewrite H0. lia.
  - (* HBegin *) pose proof (handlers_for_le s). lia.
Qed.

(* hence every execution is finite, with an explicit bound *)
Lemma run_measure s ls s' : Inv c s -> run c s ls = Some s' -> length ls + measure s' <= measure s.
Proof.
  revert s. induction ls as [|l ls IH]; simpl; intros s HI Hr.
  - injection Hr as <-. lia.
  - destruct (step s l) eqn:Hs; [|discriminate].
    pose proof (step_measure _ _ _ HI Hs). pose proof (IH _ (inv_step c Hnorep _ _ _ HI Hs) Hr). lia.
Qed.

(* from any state that satisfies the invariant (the initial state, the table of a retry) *)
Theorem finite_from s0 ls s : Inv c s0 -> run c s0 ls = Some s -> length ls <= measure s0.
Proof. intros HI Hr. pose proof (run_measure s0 ls s HI Hr). lia. Qed.

Theorem all_executions_finite ls s : run c (init c) ls = Some s -> length ls <= bound.
Proof. rewrite <- measure_init. apply finite_from, inv_init. Qed.


(* what progress needs beside Inv: no worker leaves its node running (the error switch labels a command that did not complete canceled or failed, the
   final check turns running into finished), and the handler list is not empty while a handler runs *)
Definition GR (s : state) : Prop :=
  (forall i, ph (nd s i) = PGone -> st (nd s i) <> NRunning) /\ pc s <> LHandlers [] true.

Lemma step_gr s l s' : GR s -> step s l = Some s' -> GR s'.
Proof.
  intros [HG1 HG2] Hs. split.
  - intros j. destruct (step_node c _ _ _ Hs j) as [->|(e & T & _)]; [apply HG1|].
    destruct T; nsimpl; auto; try discriminate; try congruence.
    + (* LMark *) intros _ X. apply dep_mark_values in H3. destruct H3; congruence.
    + (* WAfter *)
      destruct (after_cases c s j ok early (Hnorep j)) as [|[X|X]| | |]; try destruct (fphase_cases c) as [-> | ->]; nsimpl;
        intros; try discriminate; congruence.
    + (* WFinish *) intros _ X. destruct (st (nd s j)); discriminate.
  - (* the handler list *)
    destruct (step_Step c _ _ _ Hs) as [l i x' e T| | | | | | | | | | | ]; cbn [pc set_pc set_hst apply_eff]; auto; try discriminate.
    destruct e; cbn; auto; discriminate.
Qed.

Lemma reach_inv_gr s : Reach c s -> Inv c s /\ GR s.
Proof.
  apply (reach_with_inv c Hnorep GR); [split; [intros i H; discriminate H|discriminate]|]. intros s0 l s1 _. apply step_gr.
Qed.

(* the dependency relation is well-founded (what NewExecutionGraph guarantees, C14) *)
Definition wf_deps : Prop :=
  exists rk : nat -> nat, forall i d, i < n -> In d (deps (steps c i)) -> d < n /\ rk d < rk i.

(* labels of the scheduler itself; the others are moves of the environment *)
Definition internal (l : label) : bool :=
  match l with
  | WExecEnd _ _ | HEnd _ _ | SigFlag | Timeout => false
  | _ => true end.

(* the scheduler can move *)
Definition enabled (s : state) : Prop := exists l s', internal l = true /\ step s l = Some s'.

(* to exhibit an enabled internal label it is enough to see that `step` accepts it: under the equations of the
   context (phase, flags, guards already decided) its guard evaluates to true *)
Lemma can_ex s l : internal l = true -> step s l <> None -> enabled s.
Proof. intros Hi Hs. destruct (step s l) as [s'|] eqn:E; [exists l, s'; auto|congruence]. Qed.
Ltac accepts l :=
  apply (can_ex _ l eq_refl); cbn [Model.step];
  repeat (progress (repeat match goal with H : _ = _ |- _ => rewrite H end;
                    cbn [is_committed]; rewrite ?Nat.eqb_refl, ?handler_eqb_refl));
  discriminate.

(* a worker that is neither at rest nor executing has an enabled label *)
Lemma worker_enabled s i : i < n -> resting (nd s i) = false -> ph (nd s i) <> PExec -> enabled s.
Proof.
  intros Hi Hb Hx. unfold resting in Hb. apply Nat.ltb_lt in Hi.
  destruct (ph (nd s i)) eqn:Ep; try discriminate; try congruence.
  - (* PSetup *)
    destruct (setup_fails c i) eqn:Es.
    + accepts (WSetupFail i).
    + destruct (canceled s) eqn:Ec.
      * accepts (WSkipExec i).
      * accepts (WTest i).
  - (* PStarting *)
    destruct (dry c) eqn:Ed.
    + accepts (WDryExec i).
    + destruct (timedout s) eqn:Et.
      * accepts (WExecRefused i).
      * destruct (create_fails c s i) eqn:Ecf.
        -- accepts (WCreateFail i).
        -- accepts (WExecStart i).
  - accepts (WAfter i false).
  - accepts (WRetryWake i).
  - accepts (WRepeatWake i).
  - accepts (WFinish i).
Qed.

Lemma forallb_false_ex {A} (f : A -> bool) l : forallb f l = false -> exists x, In x l /\ f x = false.
Proof.
  induction l as [|a l IH]; simpl; [discriminate|]. destruct (f a) eqn:E; [|eauto].
  intros H. destruct (IH H) as (x & Hx & Hf). eauto.
Qed.

(* a pending Signal pass can always take its next node *)
Lemma signal_enabled s q0 qs : sigq s = q0 :: qs -> enabled s.
Proof.
  intros Eq. destruct (repeat (steps c q0)) eqn:Er; [accepts (SigNode false)|].
  destruct (st (nd s q0)) eqn:Est; try (accepts (SigNode false)).
  - destruct (0 <? att (nd s q0)) eqn:Ea; [accepts (SigNode true)|accepts (SigNode false)].
  - apply (can_ex s (SigNode (match ph (nd s q0) with PExec => true | _ => false end)) eq_refl).
    cbn [Model.step]. rewrite Eq, Er, Est, Bool.eqb_reflx. discriminate.
Qed.

(* a not-started node all of whose dependencies have left the not-started state *)
Lemma minimal_none s : wf_deps -> (exists i, i < n /\ st (nd s i) = NNone) ->
  exists i, i < n /\ st (nd s i) = NNone /\ forall d, In d (deps (steps c i)) -> d < n /\ st (nd s d) <> NNone.
Proof.
  intros [rk Hrk] [i [Hi Hn]]. induction i as [i IH] using (induction_ltof1 _ rk). unfold ltof in IH.
  (* a not-started dependency has a smaller rank *)
  destruct (existsb (fun d => nstatus_eqb (st (nd s d)) NNone) (deps (steps c i))) eqn:E.
  - apply existsb_exists in E. destruct E as (d & Hd & Hdn). apply nstatus_eqb_eq in Hdn.
    destruct (Hrk i d Hi Hd) as [Hdlt Hrd]. now apply (IH d).
  - exists i. split; [exact Hi|]. split; [exact Hn|]. intros d Hd. split; [now apply (Hrk i d)|]. intros Hdn.
    assert (X : existsb (fun d => nstatus_eqb (st (nd s d)) NNone) (deps (steps c i)) = true); [|congruence].
    apply existsb_exists. exists d. split; auto. now apply nstatus_eqb_eq.
Qed.

(* the loop at its head, every worker at rest, no node running, the run not over: the readiness gate marks a node, or the
   loop commits one (the capacity test passes because nothing is running) *)
Lemma head_enabled s : Inv c s -> wf_deps -> pc s = LHead -> canceled s = false -> all_terminal c s = false ->
  (forall i, i < n -> st (nd s i) <> NRunning) -> enabled s.
Proof.
  intros HI Hwf Ep Ec Et Hnr.
  assert (Hex : exists i, i < n /\ st (nd s i) = NNone).
  { apply forallb_false_ex in Et. destruct Et as (i & Hi & Hti). apply in_seq in Hi. exists i. split; [lia|].
    specialize (Hnr i ltac:(lia)). destruct (st (nd s i)); try discriminate; congruence. }
  destruct (minimal_none s Hwf Hex) as (i & Hi & Hni & Hdeps). apply Nat.ltb_lt in Hi.
  destruct (blocked c s i) eqn:Em.
  - apply blocked_iff in Em. destruct Em as (m & d & Hd & Edm).
    apply (can_ex s (LMark i d) eq_refl). cbn [Model.step]. rewrite Hi, Ep, Hni, Edm.
    assert (existsb (Nat.eqb d) (deps (steps c i)) = true) as ->; [|discriminate].
    apply existsb_exists. exists d. split; auto. apply Nat.eqb_refl.
  - assert (Hready : ready c s i = true).
    { apply forallb_forall. intros d Hd. destruct (Hdeps d Hd) as [Hdn Hdnn]. specialize (Hnr d Hdn).
      pose proof (blocked_false c s i Em d Hd) as Hmd. unfold dep_mark in Hmd. unfold dep_ok.
      destruct (st (nd s d)); try congruence; try reflexivity.
      - destruct (cof (steps c d)); [reflexivity|discriminate].
      - destruct (cos (steps c d)); [reflexivity|discriminate]. }
    assert (Hrc : running_count c s = 0).
    { apply (count_none c is_running). intros j Hj. unfold is_running. specialize (Hnr j Hj).
      destruct (st (nd s j)); try reflexivity. congruence. }
    apply (can_ex s (LCommit i) eq_refl). cbn [Model.step].
    rewrite Hi, Ep, Hni, Hready, Ec, Hrc. cbn [is_head nstatus_eqb andb negb].
    destruct (maxActive c) eqn:Ek; discriminate.
Qed.

Theorem progress s : Reach c s -> wf_deps -> pc s <> LDone ->
  (exists l s', internal l = true /\ step s l = Some s') \/
  (exists i, i < n /\ ph (nd s i) = PExec) \/ (exists h t, pc s = LHandlers (h :: t) true).
Proof.
  intros Hr Hwf Hpc. destruct (reach_inv_gr s Hr) as [HI [HGR HGR2]].
  (* a worker on its way, or a command executing *)
  destruct (forallb (fun i => resting (nd s i)) (seq 0 n)) eqn:Eb.
  2:{ apply forallb_false_ex in Eb. destruct Eb as (i & Hi & Hb). apply in_seq in Hi.
      assert (Hx : ph (nd s i) = PExec \/ ph (nd s i) <> PExec) by (destruct (ph (nd s i)); auto; right; discriminate).
      destruct Hx as [Hx|Hx]; [right; left; exists i; split; [lia|exact Hx]|left; apply (worker_enabled s i); auto; lia]. }
  assert (Hq : forall i, i < n -> ph (nd s i) = PIdle \/ ph (nd s i) = PGone).
  { intros i Hi. apply resting_phase, (forallb_seq_lt _ _ Eb i Hi). }
  destruct (sigq s) as [|q0 qs] eqn:Eq; [|left; eapply signal_enabled; eauto].
  destruct (pc s) as [|i| |todo cur|] eqn:Ep; [left|left|left| |congruence].
  - (* LHead *)
    destruct (canceled s || all_terminal c s) eqn:Ex; [accepts LExit|].
    apply orb_false_iff in Ex. destruct Ex as [Ec Et]. apply head_enabled; auto.
    intros i Hi Hrun. destruct (Hq i Hi) as [Hp|Hp].
    + pose proof (iA _ _ HI i) as HA. unfold coherent in HA. rewrite Hp in HA. intuition congruence.
    + exact (HGR i Hp Hrun).
  - (* LCommitted i *) destruct (pre (steps c i)) eqn:Epre; [accepts (LLaunch i)|accepts (LSkipPre i)].
  - (* LExited: every worker has left, the handlers are chosen *)
    apply (can_ex s HBegin eq_refl). cbn [Model.step]. rewrite Ep.
    assert (all_gone c s = true) as ->; [|discriminate].
    apply forallb_forall. intros j Hj. apply in_seq in Hj. unfold worker_gone.
    rewrite (iS _ _ HI). destruct (Hq j ltac:(lia)) as [-> | ->]; reflexivity.
  - (* LHandlers *)
    destruct cur; [right; right; destruct todo as [|h t]; [congruence|eauto]|]. left.
    destruct todo as [|h t]; [accepts HFinish|].
    destruct (dry c) eqn:Ed; [accepts (HSkip h)|]. destruct (hsfail c h) eqn:Ehf; [accepts (HSetupFail h)|accepts (HStart h)].
Qed.

(* with the environment doing its part (commands and handlers end), every reachable state can be driven to Done;
   together with step_measure: every maximal execution ends in Done - neither the capacity limit nor anything else
   in the scheduler prevents a run from completing *)
Theorem can_complete s : Reach c s -> wf_deps -> exists ls s', run c s ls = Some s' /\ pc s' = LDone.
Proof.
  intros Hr Hwf.
  remember (measure s) as m eqn:Em. revert s Hr Em.
  induction m as [m IH] using lt_wf_ind. intros s Hr Em.
  assert (Hdrive : forall l s', step s l = Some s' -> exists ls s'', run c s ls = Some s'' /\ pc s'' = LDone).
  { intros l s' Hs.
    pose proof (step_measure _ _ _ (proj1 (reach_inv_gr s Hr)) Hs) as Hlt.
    destruct (IH (measure s') ltac:(lia) s' (reach_step c _ _ _ Hr Hs) eq_refl) as (ls & s'' & Hrun & Hd).
    exists (l :: ls), s''. split; [simpl; rewrite Hs; exact Hrun|exact Hd]. }
  assert (Hdec : pc s = LDone \/ pc s <> LDone) by (destruct (pc s); auto; right; discriminate).
  destruct Hdec as [Hd|Hpc]; [exists [], s; split; [reflexivity|assumption]|].
  destruct (progress s Hr Hwf Hpc) as [(l & s' & _ & Hs)|[(i & Hi & Hp)|(h & t & Ht)]].
  - eapply Hdrive; eauto.
  - eapply (Hdrive (WExecEnd i true)). cbn [Model.step]. rewrite Hp. apply Nat.ltb_lt in Hi. rewrite Hi. reflexivity.
  - eapply (Hdrive (HEnd h true)). cbn [Model.step]. now rewrite Ht, handler_eqb_refl.
Qed.

End Term.
