(* `next` (the skipping search of Cron/Model.v) returns the least matching minute after t within the library's
   horizon, else None; it equals the naive minute-by-minute search; consequences for the daemon's `due` test. *)
From Coq Require Import List Bool Arith ZArith Lia String.
From BD.Cron Require Import Model ProofsCal.
Local Open Scope Z_scope.

Definition least (P : Z -> bool) (lo hi : Z) (r : option Z) : Prop :=
  match r with
  | Some x => lo <= x < hi /\ P x = true /\ forall y, lo <= y < x -> P y = false
  | None => forall y, lo <= y < hi -> P y = false
  end.

Lemma least_unique : forall P lo hi r1 r2, least P lo hi r1 -> least P lo hi r2 -> r1 = r2.
Proof.
  intros P lo hi [x|] [y|] H1 H2; simpl in *; try reflexivity.
  - destruct H1 as (Hx & Px & Mx), H2 as (Hy & Py & My).
    destruct (Z.lt_trichotomy x y) as [L|[E|L]].
    + rewrite (My x) in Px by lia. discriminate.
    + subst. reflexivity.
    + rewrite (Mx y) in Py by lia. discriminate.
  - destruct H1 as (Hx & Px & _). rewrite (H2 x Hx) in Px. discriminate.
  - destruct H2 as (Hy & Py & _). rewrite (H1 y Hy) in Py. discriminate.
Qed.

Lemma least_empty : forall P lo hi, hi <= lo -> least P lo hi None.
Proof. intros P lo hi H y Hy. lia. Qed.

Lemma least_here : forall P lo hi, lo < hi -> P lo = true -> least P lo hi (Some lo).
Proof. intros P lo hi H E. simpl. repeat split; try lia; assumption. Qed.

Lemma least_skip : forall P lo mid hi r, lo <= mid -> (forall z, lo <= z < mid -> P z = false) ->
  least P mid hi r -> least P lo hi r.
Proof.
  intros P lo mid hi [x|] Hm Hs; simpl.
  - intros (Hx & Px & Mx). repeat split; try lia; [assumption|].
    intros y Hy. destruct (Z.lt_ge_cases y mid); [apply Hs | apply Mx]; lia.
  - intros H y Hy. destruct (Z.lt_ge_cases y mid); [apply Hs | apply H]; lia.
Qed.

Lemma find_from_least : forall P n lo, least P lo (lo + Z.of_nat n) (find_from P lo n).
Proof.
  intros P. induction n as [|n IH]; intros lo; cbn [find_from].
  - apply least_empty. lia.
  - destruct (P lo) eqn:E; [apply least_here; [lia | exact E]|].
    apply (least_skip _ _ (lo + 1)); [lia | intros z Hz; replace z with lo by lia; exact E|].
    replace (lo + Z.of_nat (S n)) with (lo + 1 + Z.of_nat n) by lia. apply IH.
Qed.

Lemma find_from_least_to : forall P lo hi, lo <= hi -> least P lo hi (find_from P lo (Z.to_nat (hi - lo))).
Proof.
  intros P lo hi H. pose proof (find_from_least P (Z.to_nat (hi - lo)) lo) as L.
  replace (lo + Z.of_nat (Z.to_nat (hi - lo))) with hi in L by lia. exact L.
Qed.

Lemma block_decomp : forall n x, 0 < n -> x = x / n * n + x mod n /\ 0 <= x mod n < n.
Proof. intros n x H. pose proof (Z.div_mod x n). pose proof (Z.mod_pos_bound x n). lia. Qed.

Lemma block_of : forall n b y, b * n <= y < b * n + n -> y / n = b /\ y mod n = y - b * n.
Proof.
  intros n b y H. split; symmetry.
  - apply (Z.div_unique y n b (y - b * n)); lia.
  - apply (Z.mod_unique y n b (y - b * n)); lia.
Qed.

Lemma block_split : forall n b o, 0 <= o < n -> (b * n + o) / n = b /\ (b * n + o) mod n = o.
Proof. intros n b o H. destruct (block_of n b (b * n + o)) as [-> ->]; [lia|]. split; [reflexivity | ring]. Qed.

(* Two-level search for the least x >= b0 * n + o0 below bhi * n whose block x / n satisfies P and whose offset
   x mod n satisfies Q: the rest of block b0 (rA), else the first later block with P (rB) at its first offset
   with Q (r0).  Both `first_tod` (hours of 60 minutes) and `next_local` (days of 1440 minutes) have this shape. *)
Definition lex_pick (n b0 : Z) (pb0 : bool) (rA rB r0 : option Z) : option Z :=
  match (if pb0 then rA else None) with
  | Some o => Some (b0 * n + o)
  | None => match rB with
            | Some b => match r0 with Some o => Some (b * n + o) | None => None end
            | None => None
            end
  end.

Section Lex.
  Variables (n : Z) (P Q : Z -> bool).
  Hypothesis Hn : 0 < n.
  Let R (x : Z) : bool := P (x / n) && Q (x mod n).

  Lemma lex_at : forall b o, 0 <= o < n -> R (b * n + o) = P b && Q o.
  Proof. intros b o H. unfold R. destruct (block_split n b o H) as [-> ->]. reflexivity. Qed.

  Lemma least_blocks : forall b1 bhi rB r0, least P b1 bhi rB -> least Q 0 n r0 ->
    least R (b1 * n) (bhi * n)
          (match rB with Some b => match r0 with Some o => Some (b * n + o) | None => None end | None => None end).
  Proof.
    intros b1 bhi rB r0 HB H0.
    assert (Hd : forall y, b1 * n <= y < bhi * n -> b1 <= y / n < bhi).
    { intros y Hy. split; [apply Z.div_le_lower_bound | apply Z.div_lt_upper_bound]; lia. }
    destruct rB as [b|]; [destruct r0 as [o|]|]; simpl in *.
    - destruct HB as (Hb & Pb & Mb), H0 as (Ho & Qo & Mo). split; [nia|]. split; [rewrite lex_at, Pb, Qo by lia; reflexivity|].
      intros y Hy. destruct (block_decomp n y Hn) as [Ey Hm]. specialize (Hd y ltac:(nia)). unfold R.
      destruct (Z.eq_dec (y / n) b) as [E|E].
      + rewrite (Mo (y mod n)); [apply andb_false_r|]. rewrite E in Ey. lia.
      + rewrite (Mb (y / n)); [reflexivity|]. assert (y / n < b + 1) by (apply Z.div_lt_upper_bound; nia). lia.
    - intros y Hy. unfold R. rewrite (H0 (y mod n)); [apply andb_false_r | apply Z.mod_pos_bound; exact Hn].
    - intros y Hy. unfold R. rewrite (HB (y / n)); [reflexivity | apply Hd; exact Hy].
  Qed.

  Theorem least_lex : forall b0 o0 bhi rA rB r0, 0 <= o0 < n -> b0 < bhi ->
    least Q o0 n rA -> least P (b0 + 1) bhi rB -> least Q 0 n r0 ->
    least R (b0 * n + o0) (bhi * n) (lex_pick n b0 (P b0) rA rB r0).
  Proof.
    intros b0 o0 bhi rA rB r0 Ho Hb HA HB H0. unfold lex_pick.
    assert (Hy0 : forall y, b0 * n + o0 <= y < (b0 + 1) * n -> R y = P b0 && Q (y mod n) /\ y mod n = y - b0 * n).
    { intros y Hy. unfold R. destruct (block_of n b0 y) as [-> ->]; [lia|]. split; reflexivity. }
    assert (Hlater : forall r, (forall y, b0 * n + o0 <= y < (b0 + 1) * n -> R y = false) ->
              least R ((b0 + 1) * n) (bhi * n) r -> least R (b0 * n + o0) (bhi * n) r).
    { intros r. apply least_skip. lia. }
    destruct (P b0) eqn:E0; [destruct rA as [o|]|]; simpl in HA.
    - destruct HA as (Ho' & Qo & Mo). split; [nia|]. split; [rewrite lex_at, E0, Qo by lia; reflexivity|].
      intros y Hy. destruct (Hy0 y ltac:(lia)) as [-> Em]. rewrite (Mo (y mod n)) by lia. reflexivity.
    - apply Hlater; [|apply least_blocks; assumption].
      intros y Hy. destruct (Hy0 y Hy) as [-> Em]. rewrite (HA (y mod n)) by lia. reflexivity.
    - apply Hlater; [|apply least_blocks; assumption].
      intros y Hy. destruct (Hy0 y Hy) as [-> _]. reflexivity.
  Qed.
End Lex.

Lemma tod_match_hm : forall sp h mi, 0 <= mi < 60 ->
  tod_match sp (h * 60 + mi) = bit (s_hour sp) h && bit (s_min sp) mi.
Proof. intros sp h mi Hmi. apply (lex_at 60). exact Hmi. Qed.

Lemma first_tod_least : forall sp lo, 0 <= lo < 1440 -> least (tod_match sp) lo 1440 (first_tod sp lo).
Proof.
  intros sp lo Hlo. destruct (block_decomp 60 lo ltac:(lia)) as [Elo Hmi].
  assert (Hh : lo / 60 + 1 <= 24) by (Z.div_mod_to_equations; lia).
  rewrite Elo at 1. unfold first_tod. replace (23 - lo / 60) with (24 - (lo / 60 + 1)) by ring.
  exact (least_lex 60 (bit (s_hour sp)) (bit (s_min sp)) ltac:(lia) (lo / 60) (lo mod 60) 24 _ _ _ Hmi ltac:(lia)
           (find_from_least_to _ (lo mod 60) 60 ltac:(lia)) (find_from_least_to _ _ 24 Hh) (find_from_least_to _ 0 60 ltac:(lia))).
Qed.

Lemma first_day_least : forall sp fuel D Dend, Dend - D <= Z.of_nat fuel ->
  least (day_match sp) D Dend (first_day sp fuel D Dend).
Proof.
  intros sp. induction fuel as [|k IH]; intros D Dend Hf; [apply least_empty; lia|].
  cbn [first_day]. destruct (Z.leb_spec Dend D) as [Hle|Hgt]; [apply least_empty; lia|].
  destruct (civil_from_days D) as [[y mo] d] eqn:Ec.
  destruct (bit (s_month sp) mo) eqn:Emo; cbn [negb].
  - destruct (dom_dow_match sp d D) eqn:Ed.
    + apply least_here; [lia|]. unfold day_match. rewrite Ec, Emo, Ed. reflexivity.
    + apply (least_skip _ _ (D + 1)); [lia | | apply IH; lia].
      intros z Hz. replace z with D by lia. unfold day_match. rewrite Ec, Emo, Ed. reflexivity.
  - (* the whole month is skipped *)
    destruct (same_month _ _ _ _ Ec) as [Hlt Hsame].
    apply (least_skip _ _ (first_of_next_month y mo)); [lia | | apply IH; lia].
    intros z Hz. destruct (Hsame z Hz) as [d' Ed']. unfold day_match. rewrite Ed', Emo. reflexivity.
Qed.

Lemma matches_local_dt : forall sp D tod, 0 <= tod < 1440 ->
  matches_local sp (D * 1440 + tod) = day_match sp D && tod_match sp tod.
Proof. intros sp D tod H. apply (lex_at 1440). exact H. Qed.

Lemma next_end_day : forall t, next_end t / 1440 = days_from_civil (year_of_second (t + 1) + 5 + 1) 1 1 /\
  next_end t = next_end t / 1440 * 1440.
Proof.
  intro t. unfold next_end. rewrite Z.div_mul by lia. split; reflexivity.
Qed.

Lemma next_lo_lt_end : forall t, next_lo t < next_end t.
Proof.
  intro t. unfold next_lo, next_end, year_of_second.
  destruct (civil_from_days ((t + 1) / 86400)) as [[y mo] d] eqn:E.
  pose proof (year_bounds _ _ _ _ E) as [_ Hb].
  pose proof (year_start_mono_n 5 (y + 1) ltac:(lia)) as Hm.
  replace (y + 1 + Z.of_nat 5) with (y + 5 + 1) in Hm by lia.
  assert ((t + 1 + 59) / 60 < ((t + 1) / 86400 + 1) * 1440 + 1) by (Z.div_mod_to_equations; lia).
  lia.
Qed.

Theorem next_local_least : forall sp t, least (matches_local sp) (next_lo t) (next_end t) (next_local sp t).
Proof.
  intros sp t. unfold next_local.
  pose proof (next_lo_lt_end t) as Hlt. destruct (next_end_day t) as [_ Eend].
  destruct (block_decomp 1440 (next_lo t) ltac:(lia)) as [EM0 Htl].
  set (Dend := next_end t / 1440) in *. set (D0 := next_lo t / 1440) in *. set (tl := next_lo t mod 1440) in *.
  rewrite Eend in Hlt |- *. rewrite EM0 at 1.
  assert (HD : D0 < Dend) by lia.
  replace (D0 <? Dend) with true by (symmetry; apply Z.ltb_lt; exact HD). cbn [andb].
  pose proof (first_tod_least sp 0 ltac:(lia)) as H0.
  destruct (first_tod sp 0) as [tod0|].
  - exact (least_lex 1440 (day_match sp) (tod_match sp) ltac:(lia) D0 tl Dend _ _ _ Htl HD
             (first_tod_least sp tl Htl) (first_day_least sp (Z.to_nat (Dend - D0)) (D0 + 1) Dend ltac:(lia)) H0).
  - (* empty hour or minute set: nothing ever matches *)
    intros y Hy. unfold matches_local. rewrite (H0 (y mod 1440)); [apply andb_false_r | apply Z.mod_pos_bound; lia].
Qed.

Theorem next_naive_local_least : forall sp t, least (matches_local sp) (next_lo t) (next_end t) (next_naive_local sp t).
Proof. intros sp t. apply find_from_least_to. pose proof (next_lo_lt_end t). lia. Qed.

Theorem next_local_eq_naive : forall sp t, next_local sp t = next_naive_local sp t.
Proof. intros. eapply least_unique; [apply next_local_least | apply next_naive_local_least]. Qed.

(* end of the search in unix minutes (exclusive): the end of year(t + 1s) + 5 in the schedule's zone *)
Definition horizon (sp : spec) (t : Z) : Z := next_end (t + 60 * s_off sp) - s_off sp.

Lemma next_lo_off : forall t off, next_lo (t + 60 * off) = next_lo t + off.
Proof. intros. unfold next_lo. Z.div_mod_to_equations. lia. Qed.

Lemma least_shift : forall P lo hi off r, least P (lo + off) hi r ->
  least (fun m => P (m + off)) lo (hi - off) (match r with Some m => Some (m - off) | None => None end).
Proof.
  intros P lo hi off [x|]; simpl.
  - intros (Hx & Px & Mx). replace (x - off + off) with x by ring. repeat split; try lia; [assumption|].
    intros y Hy. apply Mx. lia.
  - intros H y Hy. apply H. lia.
Qed.

(* C09 (cron part): Next = the least matching minute after t within the horizon, else None *)
Theorem next_least : forall sp t, least (matches sp) (next_lo t) (horizon sp t) (next sp t).
Proof.
  intros sp t. pose proof (next_local_least sp (t + 60 * s_off sp)) as H. rewrite next_lo_off in H.
  exact (least_shift _ _ _ _ _ H).
Qed.

Theorem next_eq_naive : forall sp t, next sp t = next_naive sp t.
Proof. intros. unfold next, next_naive. rewrite next_local_eq_naive. reflexivity. Qed.

Corollary next_some : forall sp t m, next sp t = Some m ->
  next_lo t <= m < horizon sp t /\ matches sp m = true /\ forall y, next_lo t <= y < m -> matches sp y = false.
Proof. intros sp t m H. pose proof (next_least sp t) as L. rewrite H in L. exact L. Qed.

Corollary next_none : forall sp t, next sp t = None -> forall y, next_lo t <= y < horizon sp t -> matches sp y = false.
Proof. intros sp t H. pose proof (next_least sp t) as L. rewrite H in L. exact L. Qed.

(* the whole minutes searched are those strictly after the instant t *)
Lemma next_lo_spec : forall t m, next_lo t <= m <-> t < 60 * m.
Proof. intros. unfold next_lo. Z.div_mod_to_equations. lia. Qed.

(* the daemon asks Next(tick - 1s): the search starts at the tick's own minute *)
Lemma next_lo_tick : forall m, next_lo (60 * m - 1) = m.
Proof. intro m. unfold next_lo. Z.div_mod_to_equations. lia. Qed.

Lemma tick_in_horizon : forall sp m, m < horizon sp (60 * m - 1).
Proof.
  intros sp m. unfold horizon.
  pose proof (next_lo_lt_end (60 * m - 1 + 60 * s_off sp)) as H.
  replace (60 * m - 1 + 60 * s_off sp) with (60 * (m + s_off sp) - 1) in * by ring.
  rewrite next_lo_tick in H. lia.
Qed.

Lemma next_tick_least : forall sp m, least (matches sp) m (horizon sp (60 * m - 1)) (next sp (60 * m - 1)).
Proof. intros sp m. rewrite <- (next_lo_tick m) at 1. apply next_least. Qed.

(* C09_due: the entry is invoked at tick m iff the schedule fires at m - for every schedule *)
Lemma due_matches : forall sp m, due sp m = matches sp m.
Proof.
  intros sp m. unfold due. pose proof (next_tick_least sp m) as L. pose proof (tick_in_horizon sp m) as Hm.
  destruct (next sp (60 * m - 1)) as [x|]; unfold least in L; symmetry.
  - destruct L as (Hx & Px & Mx). destruct (Z.leb_spec x m); [replace m with x by lia; exact Px | apply Mx; lia].
  - apply L. lia.
Qed.

Theorem due_iff_matches : forall sp m, due sp m = true <-> matches sp m = true.
Proof. intros sp m. rewrite due_matches. reflexivity. Qed.

Theorem next_of_match : forall sp m, matches sp m = true -> next sp (60 * m - 1) = Some m.
Proof.
  intros sp m Hm. pose proof (next_tick_least sp m) as L. pose proof (tick_in_horizon sp m) as Hh.
  destruct (next sp (60 * m - 1)) as [x|]; unfold least in L.
  - destruct L as (Hx & _ & Mx). destruct (Z.eq_dec x m) as [->|]; [reflexivity|].
    rewrite (Mx m) in Hm by lia. discriminate.
  - rewrite (L m) in Hm by lia. discriminate.
Qed.

Theorem due_of_match : forall sp m, matches sp m = true -> due sp m = true /\ next sp (60 * m - 1) = Some m.
Proof. intros sp m Hm. split; [rewrite due_matches; exact Hm | apply next_of_match; exact Hm]. Qed.

Lemma next_not_none_iff : forall sp m, next sp (60 * m - 1) <> None <->
  exists n, m <= n < horizon sp (60 * m - 1) /\ matches sp n = true.
Proof.
  intros sp m. pose proof (next_tick_least sp m) as L. split.
  - intro H. destruct (next sp (60 * m - 1)) as [x|]; [|congruence]. exists x. unfold least in L. tauto.
  - intros (n & Hn & Pn) E. rewrite E in L. unfold least in L. rewrite (L n Hn) in Pn. discriminate.
Qed.

(* the former F9a: a schedule without activation in the horizon is never due (the zero time is skipped) *)
Theorem due_of_none : forall sp m, next sp (60 * m - 1) = None -> due sp m = false /\ matches sp m = false.
Proof.
  intros sp m E. assert (D : due sp m = false) by (unfold due; rewrite E; reflexivity).
  split; [exact D | rewrite <- due_matches; exact D].
Qed.

Definition feb30 : spec := match parse "0 0 30 2 *" with POk sp => sp | _ => Build_spec 0 0 0 0 0 0 end.

(* 28589040 = 2024-05-10 12:00 UTC (a Friday), 28588500 = 03:00 of that day, in unix minutes *)
Example due_former_f9a : parse "0 0 30 2 *" = POk feb30 /\ next feb30 (60 * 28589040 - 1) = None /\ due feb30 28589040 = false.
Proof. vm_compute. repeat split. Qed.

(* both sides of the equivalence on a concrete schedule *)
Example due_premise_sat :
  exists sp, parse "*/15 3 * * 1-5" = POk sp /\
    next sp (60 * 28589040 - 1) <> None /\ next sp (60 * 28588500 - 1) = Some 28588500 /\
    matches sp 28588500 = true /\ due sp 28588500 = true /\ due sp 28589040 = false.
Proof.
  exists (match parse "*/15 3 * * 1-5" with POk sp => sp | _ => feb30 end).
  vm_compute. repeat split; discriminate.
Qed.
