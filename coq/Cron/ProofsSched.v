(* The loader's schedule code never panics (after the repairs c2912bd and 519d0a6): parse_cron refuses the one shape
   on which the library's Parse slices out of range, and an unknown key of the map form is an error. *)
From Coq Require Import List String Ascii Bool Arith ZArith.
Import ListNotations.
From BD.Cron Require Import Model Schedule.

Lemma parse_fields_no_panic : forall s off, parse_fields s off <> PPanic.
Proof.
  intros s off. unfold parse_fields.
  repeat match goal with |- context [match ?x with _ => _ end] => destruct x end; discriminate.
Qed.

Theorem parse_cron_no_panic : forall str, parse_cron str <> PPanic.
Proof.
  intro str. unfold parse_cron, parse. remember (list_ascii_of_string str) as s eqn:Es. clear Es.
  destruct (has_prefix "TZ=" s || has_prefix "CRON_TZ=" s) eqn:Ep; cbn [andb].
  - destruct (index_of_char " "%char s 0) as [i|] eqn:Ei; [|discriminate].
    destruct s as [|a r]; [discriminate|].
    destruct (index_of_char "="%char (a :: r) 0); [|discriminate].
    destruct (zone_offset _); [apply parse_fields_no_panic | discriminate].
  - destruct s as [|a r]; [discriminate|]. apply parse_fields_no_panic.
Qed.

(* the library itself does panic on that shape: the wrapper is what protects the loader *)
Example parse_library_panics : parse "TZ=UTC" = PPanic /\ parse_cron "TZ=UTC" = PErr /\ cls (parse_cron "TZ=UTC 0 0 * * *") = 0%nat.
Proof. vm_compute. repeat split. Qed.

Lemma parse_all_no_panic : forall l, parse_all l <> PPanic.
Proof.
  induction l as [|s l IH]; simpl; [discriminate|].
  pose proof (parse_cron_no_panic s). destruct (parse_cron s); try congruence.
  destruct (parse_all l); congruence.
Qed.

Lemma key_values_no_panic : forall vs, key_values vs <> PPanic.
Proof. exact parse_all_no_panic. Qed.

Lemma key_outcome_no_panic : forall kv, key_outcome kv <> PPanic.
Proof.
  intros [k v]. unfold key_outcome. simpl. destruct k as [k|]; [|discriminate].
  destruct (match v with MStr s => Some [s] | MList l => item_strings l | MOther => Some [] end) as [vs|]; [|discriminate].
  destruct (kind_of_key k); [|discriminate].
  pose proof (key_values_no_panic vs). destruct (key_values vs); congruence.
Qed.

Lemma build_map_no_panic : forall kvs acc, build_map kvs acc <> PPanic.
Proof.
  induction kvs as [|kv kvs IH]; intros acc; simpl; [discriminate|].
  pose proof (key_outcome_no_panic kv). destruct (key_outcome kv); try congruence; apply IH.
Qed.

Theorem build_schedule_no_panic : forall v, build_schedule v <> PPanic.
Proof.
  intros [s|l|kvs| |]; simpl; try discriminate.
  - pose proof (parse_cron_no_panic s). destruct (parse_cron s); congruence.
  - destruct (item_strings l) as [ss|]; [|discriminate].
    pose proof (parse_all_no_panic ss). destruct (parse_all ss); congruence.
  - apply build_map_no_panic.
Qed.

(* an unknown key is an error whatever else the map holds before it; a map of known keys only is accepted *)
Example unknown_key_is_error :
  cls (build_schedule (SMap [(KStr "begin", MStr "* * * * *")])) = 1%nat /\
  cls (build_schedule (SMap [(KStr "start", MStr "* * * * *"); (KStr "Start", MOther)])) = 1%nat /\
  outcomes (SMap [(KStr "start", MStr "* * * * *"); (KStr "stop", MList [IStr "0 18 * * *"])]) = [0%nat].
Proof. vm_compute. repeat split. Qed.
