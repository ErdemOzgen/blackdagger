(* C10 (graph part): on an acyclic graph setupRetry clears exactly the nodes reachable (reflexively) from a
   node recorded failed, canceled or running, and never runs out of fuel. *)
From Coq Require Import List Arith Bool Lia PeanoNat Relations Relation_Operators Operators_Properties.
Import ListNotations.
From BD.Graph Require Import Kahn KahnLemmas KahnProof Retry.

Section RetryProof.
Variable n : nat.
Variable E : list (nat * nat).
Variable st : nat -> nat.
Hypothesis wfE : forall u v, In (u, v) E -> u < n /\ v < n.
Hypothesis acyc : forall x, ~ clos_trans nat (edge E) x x.

Notation succs := (succs E).
Notation edge := (edge E).
Notation bad := (bad st).
Notation visit := (visit E st).
Notation loop := (loop E st).
Notation nextF := (next_frontier E).
Notation sources := (sources n E).

(* x is, or depends (transitively) on, a node recorded failed, canceled or running *)
Definition Downstream (x : nat) : Prop := exists w, bad w = true /\ clos_refl_trans nat edge w x.
Definition Sound (s : rstate) : Prop := (forall x, rt s x = true -> Downstream x) /\ (forall x, In x (cl s) -> Downstream x).

Lemma fold_setb_keep l : forall f x, f x = true -> fold_left setb l f x = true.
Proof. induction l as [|a l IH]; simpl; intros f x H; auto. apply IH. unfold setb. destruct (x =? a); auto. Qed.
Lemma fold_setb_in l : forall f x, In x l -> fold_left setb l f x = true.
Proof.
  induction l as [|a l IH]; simpl; intros f x H; [contradiction|]. destruct H as [->|H]; [|now apply IH].
  apply fold_setb_keep. unfold setb. now rewrite Nat.eqb_refl.
Qed.
Lemma fold_setb_inv l : forall f x, fold_left setb l f x = true -> f x = true \/ In x l.
Proof.
  induction l as [|a l IH]; simpl; intros f x H; auto. apply IH in H. destruct H as [H|H]; auto.
  unfold setb in H. destruct (x =? a) eqn:Hx; auto. apply Nat.eqb_eq in Hx. auto.
Qed.

Lemma visit_rt_mono x s u : rt s x = true -> rt (visit s u) x = true.
Proof.
  intros H. unfold Retry.visit. destruct (rt s u || bad u); auto. simpl.
  apply fold_setb_keep. unfold setb. destruct (x =? u); auto.
Qed.
Lemma visit_cl_mono x s u : In x (cl s) -> In x (cl (visit s u)).
Proof. intros H. unfold Retry.visit. destruct (rt s u || bad u); auto. simpl. apply in_or_app. auto. Qed.
Lemma visit_marks s u : rt s u = true \/ bad u = true ->
  In u (cl (visit s u)) /\ forall v, In v (succs u) -> rt (visit s u) v = true.
Proof.
  intros H. unfold Retry.visit.
  assert (Hc : rt s u || bad u = true) by (destruct H as [-> | ->]; auto using orb_true_r).
  rewrite Hc. simpl. split; [apply in_or_app; simpl; auto|]. intros v Hv. now apply fold_setb_in.
Qed.
Lemma visit_sound s u : Sound s -> Sound (visit s u).
Proof.
  intros [Hr Hc]. unfold Retry.visit. destruct (rt s u || bad u) eqn:Hb; [|split; auto].
  assert (Hu : Downstream u).
  { apply orb_true_iff in Hb. destruct Hb as [Hb|Hb]; [auto|]. exists u. split; auto. apply rt_refl. }
  split; simpl.
  - intros x Hx. apply fold_setb_inv in Hx. destruct Hx as [Hx|Hx].
    + unfold setb in Hx. destruct (x =? u) eqn:Hxu; [apply Nat.eqb_eq in Hxu; now subst|auto].
    + destruct Hu as (w & Hw & Hp). exists w. split; auto.
      eapply rt_trans; [exact Hp|]. apply rt_step. now apply succs_edge.
  - intros x Hx. apply in_app_or in Hx. destruct Hx as [Hx|[<-|[]]]; auto.
Qed.

Lemma fold_visit_inv (P : rstate -> Prop) : (forall s u, P s -> P (visit s u)) -> forall F s, P s -> P (fold_left visit F s).
Proof. intros Hv F. induction F as [|a F IH]; simpl; auto. Qed.

Lemma level_marks F : forall s u, In u F -> rt s u = true \/ bad u = true ->
  In u (cl (fold_left visit F s)) /\ forall v, In v (succs u) -> rt (fold_left visit F s) v = true.
Proof.
  induction F as [|a F IH]; simpl; intros s u Hin H; [contradiction|]. destruct Hin as [->|Hin].
  - destruct (visit_marks s u H) as [H1 H2]. split.
    + apply fold_visit_inv; [apply visit_cl_mono | exact H1].
    + intros v Hv. apply fold_visit_inv; [apply visit_rt_mono | auto].
  - apply IH; auto. destruct H as [H|H]; auto. left. now apply visit_rt_mono.
Qed.

Lemma loop_cons fuel s a F : loop (S fuel) s (a :: F) = loop fuel (fold_left visit (a :: F) s) (nextF (a :: F)).
Proof. reflexivity. Qed.
Lemma loop_nil fuel s : loop fuel s [] = Some s.
Proof. destruct fuel; reflexivity. Qed.
Lemma loop_0 s a F : loop 0 s (a :: F) = None.
Proof. reflexivity. Qed.

(* a fact about the loop's result follows by induction over these equations (the fuel is not seen) *)
Lemma loop_ind (Q : rstate -> list nat -> rstate -> Prop) :
  (forall s, Q s [] s) ->
  (forall fuel s a F s', loop fuel (fold_left visit (a :: F) s) (nextF (a :: F)) = Some s' ->
     Q (fold_left visit (a :: F) s) (nextF (a :: F)) s' -> Q s (a :: F) s') ->
  forall fuel s F s', loop fuel s F = Some s' -> Q s F s'.
Proof.
  intros Hnil Hcons. induction fuel as [|fuel IH]; intros s [|a F] s' H;
    rewrite ?loop_nil, ?loop_0, ?loop_cons in H; try discriminate; try (injection H as <-; apply Hnil).
  eapply Hcons; eauto.
Qed.

Lemma loop_mono : forall fuel s F s', loop fuel s F = Some s' ->
  (forall x, rt s x = true -> rt s' x = true) /\ (forall x, In x (cl s) -> In x (cl s')).
Proof.
  apply (loop_ind (fun s _ s' => (forall x, rt s x = true -> rt s' x = true) /\ (forall x, In x (cl s) -> In x (cl s')))); [auto|].
  intros _ s a F s' _ [H1 H2]. split; intros x Hx.
  - apply H1. apply fold_visit_inv; [apply visit_rt_mono | exact Hx].
  - apply H2. apply fold_visit_inv; [apply visit_cl_mono | exact Hx].
Qed.

Lemma loop_sound : forall fuel s F s', loop fuel s F = Some s' -> Sound s -> Sound s'.
Proof.
  apply (loop_ind (fun s _ s' => Sound s -> Sound s')); [auto|].
  intros _ s a F s' _ IH Hs. apply IH. apply fold_visit_inv; [exact visit_sound | exact Hs].
Qed.

Fixpoint iter (k : nat) (F : list nat) : list nat := match k with 0 => F | S k' => iter k' (nextF F) end.
Lemma iter_succ k : forall F, iter (S k) F = nextF (iter k F).
Proof. induction k as [|k IH]; intros F; [reflexivity|]. change (iter (S (S k)) F) with (iter (S k) (nextF F)). rewrite IH. reflexivity. Qed.
Lemma iter_nil j : iter j [] = [].
Proof. induction j; simpl; auto. Qed.

(* k is the index of the frontier (counted from F) on which x comes up: a node that is bad then - or, on F itself,
   already marked - drags its whole cone in *)
Lemma loop_reaches : forall fuel s F s', loop fuel s F = Some s' ->
  forall k x u, In x (iter k F) -> bad x = true \/ (k = 0 /\ rt s x = true) ->
  clos_refl_trans_1n nat edge x u -> In u (cl s').
Proof.
  apply (loop_ind (fun s F s' => forall k x u, In x (iter k F) -> bad x = true \/ (k = 0 /\ rt s x = true) ->
                                 clos_refl_trans_1n nat edge x u -> In u (cl s'))).
  - intros s k x u Hin. rewrite iter_nil in Hin. contradiction.
  - intros fuel s a F s' Hl IH k x u Hin Hm Hp. destruct k as [|k].
    + (* x is visited at this level: it is cleared, and its successors are marked on the next frontier *)
      simpl in Hin. destruct (level_marks (a :: F) s x Hin) as [Hc Hs]; [tauto|].
      inversion Hp as [|y ? He Hp']; subst.
      * apply (proj2 (loop_mono _ _ _ _ Hl)). exact Hc.
      * apply (IH 0 y u); auto.
        -- apply in_flat_map. exists x. split; auto. now apply succs_edge.
        -- right. split; auto. apply Hs. now apply succs_edge.
    + apply (IH k x u Hin); auto. destruct Hm as [Hm|[Hm _]]; [auto|discriminate].
Qed.

Notation chain := (chain E).
Lemma src_lt x : In x sources -> x < n.
Proof. unfold Retry.sources. rewrite filter_In, in_seq. lia. Qed.
Lemma walk k : forall v, In v (iter k sources) ->
  exists l, length l = S k /\ hd_error l = Some v /\ chain l /\ Forall (fun x => x < n) l.
Proof.
  induction k as [|k IH]; intros v Hv.
  - simpl in Hv. exists [v]. simpl. repeat split; auto. constructor; auto. now apply src_lt.
  - rewrite iter_succ in Hv. unfold next_frontier in Hv. apply in_flat_map in Hv. destruct Hv as (u & Hu & Hv).
    apply succs_edge in Hv. destruct (IH u Hu) as (l & Hl & Hh & Hc & Hf).
    destruct l as [|u' l]; [discriminate|]. simpl in Hh. injection Hh as ->.
    exists (v :: u :: l). simpl. simpl in Hl. repeat split; auto.
    constructor; auto. apply wfE in Hv. tauto.
Qed.
Lemma frontier_n_empty : iter n sources = [].
Proof.
  destruct (iter n sources) as [|v F] eqn:HF; auto. exfalso.
  destruct (walk n v) as (l & Hl & _ & Hc & Hf); [rewrite HF; simpl; auto|].
  destruct (long_chain_cycle n E l Hc) as (a & Ha); [apply Forall_forall, Hf | lia | exact (acyc a Ha)].
Qed.
Lemma iter_add j : forall k F, iter (j + k) F = iter j (iter k F).
Proof. induction k as [|k IH]; intros F; [now rewrite Nat.add_0_r|]. rewrite Nat.add_succ_r. simpl. apply IH. Qed.
Lemma frontier_ge_empty k : n <= k -> iter k sources = [].
Proof. intros H. replace k with ((k - n) + n) by lia. rewrite iter_add, frontier_n_empty. apply iter_nil. Qed.

(* on an acyclic graph the n-th frontier is empty (`frontier_n_empty`: a node on it would end a chain of n + 1 nodes),
   so the loop ends within the `S n` levels `setup_retry` allows *)
Lemma loop_fuel : forall fuel k s, n + 1 <= fuel + k -> exists s', loop fuel s (iter k sources) = Some s'.
Proof.
  induction fuel as [|fuel IH]; intros k s H.
  - rewrite frontier_ge_empty by lia. exists s. reflexivity.
  - destruct (iter k sources) as [|a F] eqn:HF; [exists s; reflexivity|].
    rewrite loop_cons, <- HF, <- iter_succ.
    apply IH. lia.
Qed.

Lemma indeg_pos_pred v : indeg E v <> 0 -> exists w, edge w v.
Proof. rewrite <- cnt_nil. intros H. destruct (cnt_pos_pred E [] v H) as (w & He & _). eauto. Qed.

(* every node sits on some frontier: the nodes that never do would all have a predecessor among themselves *)
Lemma all_reached v : v < n -> ~ forall k, ~ In v (iter k sources).
Proof.
  intros Hv Hnever.
  destruct (pred_closed_cycle n E (fun v => v < n /\ forall k, ~ In v (iter k sources))) with (v := v) as (a & Ha); auto.
  - tauto.
  - intros y [Hy Hny]. destruct (indeg_pos_pred y) as (w & He).
    + intros H0. apply (Hny 0). apply filter_In. split; [apply in_seq; lia | now apply Nat.eqb_eq].
    + exists w. split; auto. split; [apply wfE in He; tauto|].
      intros k Hk. apply (Hny (S k)). rewrite iter_succ. apply in_flat_map. exists w. split; auto. now apply succs_edge.
  - exact (acyc a Ha).
Qed.

Theorem setup_retry_spec :
  exists cleared, setup_retry n E st = Some cleared /\
    forall u, In u cleared <-> u < n /\ exists w, w < n /\ bad w = true /\ clos_refl_trans nat edge w u.
Proof.
  unfold setup_retry. destruct (loop_fuel (S n) 0 (rinit)) as (s' & Hl); [lia|]. change (iter 0 sources) with sources in Hl. rewrite Hl.
  eexists. split; [reflexivity|]. intros u. rewrite filter_In, in_seq. split.
  - intros [Hu Hc]. apply memb_In in Hc. split; [lia|].
    destruct (loop_sound _ _ _ _ Hl) as [_ Hs]; [split; simpl; [discriminate|contradiction]|].
    destruct (Hs u Hc) as (w & Hw & Hp). exists w. split; auto.
    apply clos_rt_rt1n in Hp. inversion Hp as [|y ? He _]; subst; [lia|apply wfE in He; tauto].
  - intros [Hu (w & Hw & Hb & Hp)]. split; [lia|].
    (* w sits on some frontier; membership in the cleared list is decidable *)
    destruct (memb u (cl s')) eqn:Hm; [reflexivity|]. elim (all_reached w Hw). intros k Hk.
    apply memb_nIn in Hm. apply Hm. apply (loop_reaches _ _ _ _ Hl k w u); auto. now apply clos_rt_rt1n.
Qed.

End RetryProof.

Example retry_diamond :
  setup_retry 4 [(0,1);(0,2);(1,3);(2,3)] (fun i => nth i [4;2;4;4] 0) = Some [1;3].
Proof. vm_compute. reflexivity. Qed.
Example retry_diamond_premises :
  (forall u v, In (u, v) [(0,1);(0,2);(1,3);(2,3)] -> u < 4 /\ v < 4) /\ has_cycle 4 [(0,1);(0,2);(1,3);(2,3)] = false.
Proof. split; [|reflexivity]. simpl. intros u v H. repeat (destruct H as [H|H]; [injection H as <- <-; lia|]). contradiction. Qed.

(* F10a (repaired by the fix commit in /repo): a node recorded *running* - left by a killed process - is
   reset like a failed one, together with its dependents. *)
Example running_is_reset :
  setup_retry 3 [(0,1);(1,2)] (fun i => nth i [4;1;0] 0) = Some [1;2].
Proof. vm_compute. reflexivity. Qed.
