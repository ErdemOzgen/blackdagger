(* C10 corollary: retrying a run in which every step had finished (or been skipped) executes no command at all -
   for every configuration and every execution of the retry (the retry run on the scheduler model, see RetrySched.v). *)
From Coq Require Import List Bool Arith.
Import ListNotations.
From BD.Sched Require Import Model Proofs ProofsRetry.
From BD.Graph Require Import RetrySched.

Theorem retry_of_finished_run_executes_nothing (c : cfg) : norepeat c ->
  forall tbl : nat -> nstatus, tbl_consistent c tbl -> (forall j, tbl j = NSuccess \/ tbl j = NSkipped) ->
  forall ls s, run c (init_from c tbl) ls = Some s -> forall j, ~ In (WExecStart j) ls.
Proof.
  intros Hn tbl Hc Hall ls s Hr j Hin.
  destruct (retry_executes_only_unfinished c Hn tbl Hc j ls s Hr Hin) as [A B].
  destruct (Hall j); contradiction.
Qed.

Lemma all_finished_consistent (c : cfg) : tbl_consistent c (fun _ => NSuccess) /\ (forall j : nat, (fun _ : nat => NSuccess) j = NSuccess \/ (fun _ : nat => NSuccess) j = NSkipped).
Proof. split; [intros i _ d _; left; reflexivity | intros j; left; reflexivity]. Qed.
