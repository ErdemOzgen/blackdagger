(* The cycle check of Graph/Kahn.v decides acyclicity (`has_cycle_correct`), with a witness either way
   (`has_cycle_spec`): the loop invariant `Inv` makes the eliminated nodes a topological order, which ranks them, and
   when nodes are left over each has a predecessor among them, so a backward walk repeats a node (pigeonhole). *)
From Coq Require Import List Arith Bool Lia PeanoNat Relations Permutation Relation_Operators Operators_Properties.
Import ListNotations.
From BD.Graph Require Import Kahn KahnLemmas.

Section Main.
Variable n : nat.
Variable E : list (nat * nat).
Hypothesis wfE : forall u v, In (u, v) E -> u < n /\ v < n.

Notation succs := (succs E).
Notation indeg := (indeg E).
Notation cnt := (cnt E).
Notation edge := (edge E).
Notation mult := (mult E).

Fixpoint topo (R : list nat) : Prop :=
  match R with [] => True | u :: R0 => (forall w, edge w u -> In w R0) /\ topo R0 end.

(* R = the nodes eliminated so far, newest first; q = the queue; deg = the in-degrees counting only edges from nodes
   not yet eliminated, so that exactly the nodes of R and q have degree 0 *)
Definition Inv (R : list nat) (deg : nat -> nat) (q : list nat) : Prop :=
  NoDup (R ++ q) /\ (forall x, In x (R ++ q) -> x < n) /\ (forall v, deg v = cnt R v)
  /\ (forall v, v < n -> (cnt R v = 0 <-> In v (R ++ q))) /\ topo R.

Lemma NoDup_app_intro (l1 l2 : list nat) :
  NoDup l1 -> NoDup l2 -> (forall x, In x l1 -> ~ In x l2) -> NoDup (l1 ++ l2).
Proof.
  induction l1 as [|a l1 IH]; simpl; intros H1 H2 Hd; auto.
  inversion H1; subst. constructor.
  - rewrite in_app_iff. intros [?|?]; [auto|]. eapply Hd; eauto.
  - apply IH; auto.
Qed.

Lemma step_inv R deg u q :
  Inv R deg (u :: q) ->
  exists deg' nq, dec_list deg (succs u) [] = (deg', nq) /\ Inv (u :: R) deg' (q ++ nq).
Proof.
  intros (Hnd & Hb & Hdeg & Hz & Ht).
  assert (HuR : ~ In u R).
  { intros Hin. apply NoDup_remove_2 in Hnd. apply Hnd. apply in_or_app. now left. }
  assert (Hle : forall w, count_occ Nat.eq_dec (succs u) w <= deg w).
  { intros w. rewrite Hdeg, (cnt_pop E R u w HuR). unfold KahnLemmas.mult. lia. }
  destruct (dec_list_spec (succs u) deg []) as (deg' & zs & Heq & Hd & Hndz & Hzs).
  exists deg', zs. split; [exact Heq|].
  assert (Hun : u < n) by (apply Hb, in_or_app; right; left; auto).
  assert (Hcnt' : forall v, cnt (u :: R) v = cnt R v - mult u v).
  { intros v. rewrite (cnt_pop E R u v HuR). lia. }
  (* the nodes queued are those whose last edges from outside R came from u *)
  assert (Hzs' : forall z, In z zs <-> cnt R z <> 0 /\ cnt (u :: R) z = 0).
  { intros z. rewrite Hzs, Hcnt', <- Hdeg. specialize (Hle z). unfold KahnLemmas.mult. lia. }
  assert (Hzn : forall z, In z zs -> z < n).
  { intros z Hin. apply Hzs in Hin. assert (Hm : mult u z <> 0) by (unfold KahnLemmas.mult; lia).
    apply mult_pos_In, succs_edge, wfE in Hm. tauto. }
  assert (Hperm : Permutation ((u :: R) ++ q ++ zs) ((R ++ u :: q) ++ zs)).
  { rewrite <- app_assoc. simpl. apply Permutation_middle. }
  split; [|split; [|split; [|split]]].
  - eapply Permutation_NoDup; [symmetry; exact Hperm|].
    apply NoDup_app_intro; auto.
    intros x Hx Hxz. apply Hzs' in Hxz. apply (proj1 Hxz). apply Hz; auto.
  - intros x Hx. apply (Permutation_in _ Hperm) in Hx. apply in_app_or in Hx. destruct Hx as [Hx|Hx]; auto.
  - intros v. rewrite Hd, Hcnt', Hdeg. reflexivity.
  - intros v Hv. rewrite Hperm, in_app_iff, <- (Hz v Hv), Hzs', Hcnt'. lia.
  - simpl. split; auto. intros w Hw. apply (cnt_zero_preds E R u); auto.
    apply Hz; auto. apply in_or_app. right. now left.
Qed.

Lemma NoDup_bounded_length (l : list nat) : NoDup l -> (forall x, In x l -> x < n) -> length l <= n.
Proof.
  intros Hnd Hb. rewrite <- (seq_length n 0). apply NoDup_incl_length; auto.
  intros x Hx. apply in_seq. specialize (Hb x Hx). lia.
Qed.

(* each pop moves a node into R, which never holds more than n nodes, so the queue is empty before `S n` pops are
   used up: the fuel of `has_cycle` is never exhausted *)
Lemma kahn_spec : forall fuel R deg q,
  Inv R deg q -> n + 1 <= fuel + length R ->
  exists R' deg', kahn E fuel deg q = Some deg' /\ Inv R' deg' [].
Proof.
  induction fuel as [|fuel IH]; intros R deg q HI Hf.
  - destruct q as [|u q]; [exists R, deg; split; auto|].
    exfalso. destruct HI as (Hnd & Hb & _). pose proof (NoDup_bounded_length _ Hnd Hb) as Hl.
    rewrite app_length in Hl. simpl in *. lia.
  - destruct q as [|u q]; [exists R, deg; split; auto|].
    cbn [kahn]. destruct (step_inv R deg u q HI) as (deg' & nq & Heq & HI'). rewrite Heq.
    apply (IH (u :: R)); auto. simpl. lia.
Qed.

Lemma inv_init : Inv [] indeg (filter (fun v => indeg v =? 0) (nodes n)).
Proof.
  unfold Inv, nodes. simpl. split; [|split; [|split; [|split]]]; auto.
  - apply NoDup_filter, seq_NoDup.
  - intros x Hx. apply filter_In in Hx. destruct Hx as [Hx _]. apply in_seq in Hx. lia.
  - intros v. now rewrite cnt_nil.
  - intros v Hv. rewrite cnt_nil, filter_In, in_seq, Nat.eqb_eq. intuition lia.
Qed.

Lemma topo_pred R : topo R -> forall v w, In v R -> edge w v -> In w R.
Proof.
  induction R as [|u R0 IH]; simpl; intros Ht v w Hv He; [contradiction|].
  destruct Ht as [Hp Ht]. destruct Hv as [->|Hv]; [right; now apply Hp|right; eapply IH; eauto].
Qed.

(* rank = number of nodes eliminated before it (= length of the tail behind it in the order) *)
Fixpoint rank_in (R : list nat) (x : nat) : nat :=
  match R with
  | [] => 0
  | u :: R0 => if Nat.eqb u x then length R0 else rank_in R0 x
  end.
Lemma rank_in_lt R x : In x R -> rank_in R x < length R.
Proof.
  induction R as [|u R0 IH]; simpl; intros H; [contradiction|].
  destruct (Nat.eqb_spec u x) as [->|Hne]; [lia|].
  destruct H as [H|H]; [congruence|]. specialize (IH H). lia.
Qed.
Lemma rank_in_edge R : NoDup R -> topo R -> forall w v, In v R -> edge w v -> rank_in R w < rank_in R v.
Proof.
  induction R as [|u R0 IH]; simpl; intros Hnd Ht w v Hv He; [contradiction|].
  destruct Ht as [Hp Ht]. inversion Hnd as [|? ? HuR Hnd0]; subst.
  destruct (Nat.eqb_spec u v) as [->|Hne].
  - (* v is the head: w is one of its predecessors, hence in the tail *)
    pose proof (Hp w He) as Hw.
    destruct (Nat.eqb_spec v w) as [->|Hvw]; [contradiction|].
    now apply rank_in_lt.
  - destruct Hv as [Hv|Hv]; [congruence|].
    pose proof (topo_pred R0 Ht v w Hv He) as Hw.
    destruct (Nat.eqb_spec u w) as [->|Huw]; [contradiction|].
    now apply IH.
Qed.

Lemma topo_rank R : NoDup R -> topo R -> forall x y, clos_trans nat edge x y -> In y R ->
  In x R /\ rank_in R x < rank_in R y.
Proof.
  intros Hnd Ht x y H. induction H as [x y He|x y z _ IH1 _ IH2]; intros Hy.
  - split; [eapply topo_pred; eauto | apply rank_in_edge; auto].
  - destruct (IH2 Hy) as [Hy' H2]. destruct (IH1 Hy') as [Hx H1]. split; [exact Hx | lia].
Qed.

Lemma topo_acyc R : topo R -> NoDup R -> forall x, In x R -> ~ clos_trans nat edge x x.
Proof. intros Ht Hnd x Hx Hc. destruct (topo_rank R Hnd Ht x x Hc Hx) as [_ H]. lia. Qed.

Definition acyclic' : Prop := forall x, ~ clos_trans nat edge x x.

Lemma topo_acyclic R : NoDup R -> topo R -> (forall v, v < n -> In v R) -> acyclic'.
Proof.
  intros Hnd Ht Hall x Hc. apply (topo_acyc R Ht Hnd x); [|exact Hc]. apply Hall.
  assert (Hb : forall a b, clos_trans nat edge a b -> b < n).
  { induction 1 as [a b He|]; [apply wfE in He; tauto | auto]. }
  exact (Hb x x Hc).
Qed.

Fixpoint chain (l : list nat) : Prop :=
  match l with
  | a :: ((b :: _) as t) => edge b a /\ chain t
  | _ => True
  end.

Lemma chain_app_r l1 l2 : chain (l1 ++ l2) -> chain l2.
Proof.
  induction l1 as [|a l1 IH]; simpl; auto.
  destruct (l1 ++ l2) eqn:Heq; intros H.
  - destruct l2; [exact I|]. destruct l1; discriminate.
  - apply IH. tauto.
Qed.

Lemma chain_clos : forall m a b t, chain (a :: m ++ b :: t) -> clos_trans nat edge b a.
Proof.
  induction m as [|c m IH]; intros a b t H.
  - simpl in H. apply t_step. tauto.
  - simpl app in H. cbn [chain] in H. destruct H as [He Hc].
    eapply t_trans; [eapply IH; exact Hc|apply t_step; exact He].
Qed.

Lemma not_NoDup_split (l : list nat) : ~ NoDup l -> exists a l1 l2 l3, l = l1 ++ a :: l2 ++ a :: l3.
Proof.
  induction l as [|x l IH]; intros H; [exfalso; apply H; constructor|].
  destruct (in_dec Nat.eq_dec x l) as [Hin|Hnin].
  - apply in_split in Hin. destruct Hin as (l2 & l3 & ->). exists x, [], l2, l3. reflexivity.
  - destruct IH as (a & l1 & l2 & l3 & ->).
    + intros Hnd. apply H. constructor; auto.
    + exists a, (x :: l1), l2, l3. reflexivity.
Qed.

(* pigeonhole: a chain of more than n nodes, all below n, passes twice through some node *)
Lemma long_chain_cycle l : chain l -> (forall x, In x l -> x < n) -> n < length l -> exists a, clos_trans nat edge a a.
Proof.
  intros Hc Hb Hl. destruct (not_NoDup_split l) as (a & l1 & l2 & l3 & ->).
  - intros Hnd. pose proof (NoDup_bounded_length _ Hnd Hb). lia.
  - exists a. apply chain_app_r in Hc. eapply chain_clos; eauto.
Qed.

Section Cyc.
Variable C : nat -> Prop.
Hypothesis Cbound : forall v, C v -> v < n.
Hypothesis Cpred : forall v, C v -> exists w, edge w v /\ C w.

Lemma build_chain : forall k v, C v -> exists l, length l = S k /\ hd_error l = Some v /\ chain l /\ Forall C l.
Proof.
  induction k as [|k IH]; intros v Hv.
  - exists [v]. simpl. repeat split; auto.
  - destruct (Cpred v Hv) as (w & He & Hw). destruct (IH w Hw) as (l & Hl & Hh & Hc & Hf).
    destruct l as [|w' l]; [discriminate|]. simpl in Hh. injection Hh as ->.
    exists (v :: w :: l). simpl. simpl in Hl. repeat split; auto.
Qed.

Lemma pred_closed_cycle v : C v -> exists a, clos_trans nat edge a a.
Proof.
  intros Hv. destruct (build_chain n v Hv) as (l & Hl & _ & Hc & Hf).
  apply (long_chain_cycle l Hc); [|lia]. intros x Hx. apply Cbound. rewrite Forall_forall in Hf. auto.
Qed.
End Cyc.

Theorem has_cycle_spec :
  if has_cycle n E then exists a, clos_trans nat edge a a
  else exists R, NoDup R /\ topo R /\ forall v, v < n -> In v R.
Proof.
  unfold has_cycle.
  destruct (kahn_spec (S n) [] indeg _ inv_init) as (R & deg & Hk & HI); [simpl; lia|].
  rewrite Hk. destruct HI as (Hnd & Hb & Hdeg & Hz & Ht). rewrite app_nil_r in *.
  destruct (existsb _ (nodes n)) eqn:Hex.
  - (* some node keeps a positive in-degree: among the nodes not eliminated everybody has a predecessor *)
    apply existsb_exists in Hex. destruct Hex as (v & Hv & Hpos). apply in_seq in Hv. apply Nat.ltb_lt in Hpos.
    apply (pred_closed_cycle (fun v => v < n /\ ~ In v R)) with (v := v).
    + tauto.
    + intros y [Hy HyR]. destruct (cnt_pos_pred E R y) as (w & He & Hw).
      * intros H0. apply HyR. apply Hz; auto.
      * exists w. split; auto. split; auto. apply wfE in He. tauto.
    + split; [lia|]. intros Hin. apply Hz in Hin; [|lia]. rewrite <- Hdeg in Hin. lia.
  - exists R. split; [exact Hnd|]. split; [exact Ht|].
    intros v Hv. apply Hz; auto. rewrite <- Hdeg.
    destruct (deg v) eqn:Hd; auto. exfalso.
    enough (existsb (fun v => 0 <? deg v) (nodes n) = true) by congruence.
    apply existsb_exists. exists v. split; [apply in_seq; lia|]. rewrite Hd. reflexivity.
Qed.

Theorem has_cycle_correct : has_cycle n E = false <-> acyclic'.
Proof.
  pose proof has_cycle_spec as S. destruct (has_cycle n E); split; intros H; auto; try discriminate.
  - destruct S as (a & Ha). elim (H a Ha).
  - destruct S as (R & Hnd & Ht & Hall). exact (topo_acyclic R Hnd Ht Hall).
Qed.

End Main.
