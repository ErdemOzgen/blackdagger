(* C14: gaccept ss = VOk  <->  every depends entry names a step  /\  the dependency relation on names is acyclic. *)
From Coq Require Import List Arith Bool Lia PeanoNat String Relations Relation_Operators Operators_Properties.
Import ListNotations.
From BD.Graph Require Import Kahn KahnLemmas KahnProof Accept.

Definition dep_rel (ss : list gstep) (a b : string) : Prop :=
  exists s, In s ss /\ gname s = b /\ In a (gdeps s).      (* a is listed in the depends of the step named b *)
Definition all_resolve (ss : list gstep) : Prop :=
  forall s d, In s ss -> In d (gdeps s) -> exists s', In s' ss /\ gname s' = d.
Definition acyclic_names (ss : list gstep) : Prop :=
  forall x, ~ clos_trans string (dep_rel ss) x x.

Lemma index_of_some ss nm j : index_of ss nm = Some j ->
  exists s, nth_error ss j = Some s /\ gname s = nm.
Proof.
  revert j. induction ss as [|s ss IH]; simpl; intros j H; [discriminate|].
  destruct (String.eqb_spec (gname s) nm) as [He|He].
  - injection H as <-. exists s. auto.
  - destruct (index_of ss nm) as [k|] eqn:Hk; [|discriminate]. injection H as <-.
    destruct (IH k eq_refl) as (s' & Hn & Hg). exists s'. auto.
Qed.

Lemma index_of_none ss nm : index_of ss nm = None -> forall s, In s ss -> gname s <> nm.
Proof.
  induction ss as [|s ss IH]; simpl; intros H s' Hin; [contradiction|].
  destruct (String.eqb_spec (gname s) nm) as [He|He]; [discriminate|].
  destruct (index_of ss nm) eqn:Hk; [discriminate|].
  destruct Hin as [<-|Hin]; auto.
Qed.

Lemma index_of_in ss nm : (exists s, In s ss /\ gname s = nm) -> exists j, index_of ss nm = Some j.
Proof.
  intros (s & Hin & Hg). destruct (index_of ss nm) as [j|] eqn:H; [eauto|].
  exfalso. exact (index_of_none ss nm H s Hin Hg).
Qed.

Lemma index_of_nth ss j s : NoDup (map gname ss) -> nth_error ss j = Some s -> index_of ss (gname s) = Some j.
Proof.
  revert j. induction ss as [|s0 ss IH]; intros j Hnd Hn; [destruct j; discriminate|].
  simpl in Hnd. inversion Hnd as [|? ? Hnin Hnd']; subst.
  destruct j as [|j]; simpl in *.
  - injection Hn as ->. now rewrite String.eqb_refl.
  - destruct (String.eqb_spec (gname s0) (gname s)) as [He|He].
    + exfalso. apply Hnin. rewrite He. apply in_map. eapply nth_error_In; eauto.
    + now rewrite (IH j Hnd' Hn).
Qed.

Lemma dep_edges_spec all i ds :
  match dep_edges all i ds with
  | None => exists d, In d ds /\ index_of all d = None
  | Some E => (forall d, In d ds -> exists j, index_of all d = Some j) /\
              forall j i', In (j, i') E <-> i' = i /\ exists d, In d ds /\ index_of all d = Some j
  end.
Proof.
  induction ds as [|d ds IH]; simpl.
  - split; [contradiction|]. intros j i'. split; [contradiction|intros (_ & d & [] & _)].
  - destruct (index_of all d) as [k|] eqn:Hk; [|exists d; auto].
    destruct (dep_edges all i ds) as [E'|]; [|destruct IH as (d' & Hin & Hd'); exists d'; auto].
    destruct IH as [Hres IH]. split.
    + intros d' [<-|Hin]; eauto.
    + intros j i'. simpl. rewrite IH. split.
      * intros [Heq|(-> & d' & Hin & Hd')]; [injection Heq as <- <-|]; eauto.
      * intros (-> & d' & [<-|Hin] & Hd'); [left; congruence | eauto].
Qed.

Lemma edges_from_spec all k ss :
  match edges_from all k ss with
  | None => exists s d, In s ss /\ In d (gdeps s) /\ index_of all d = None
  | Some E => (forall s d, In s ss -> In d (gdeps s) -> exists j, index_of all d = Some j) /\
              forall j i, In (j, i) E <->
                exists p s, nth_error ss p = Some s /\ i = k + p /\ exists d, In d (gdeps s) /\ index_of all d = Some j
  end.
Proof.
  revert k. induction ss as [|s ss IH]; intros k; simpl.
  - split; [contradiction|]. intros j i. split; [contradiction|]. intros ([|p] & s & Hn & _); discriminate.
  - pose proof (dep_edges_spec all k (gdeps s)) as H1. destruct (dep_edges all k (gdeps s)) as [E1|];
      [|destruct H1 as (d & Hd & Hi); exists s, d; auto].
    specialize (IH (S k)). destruct (edges_from all (S k) ss) as [E2|];
      [|destruct IH as (s' & d & Hin & Hd & Hi); exists s', d; auto].
    destruct H1 as [Hres1 H1]. destruct IH as [Hres2 H2]. split.
    + intros s' d [<-|Hin]; eauto.
    + intros j i. rewrite in_app_iff, H1, H2. split.
      * intros [(-> & Hd)|(p & s' & Hn & -> & Hd)].
        -- exists 0, s. auto.
        -- exists (S p), s'. split; auto. split; [lia|auto].
      * intros ([|p] & s' & Hn & -> & Hd); simpl in Hn.
        -- left. injection Hn as ->. split; [lia|auto].
        -- right. exists p, s'. split; auto. split; [lia|auto].
Qed.

Lemma edges_some_resolve ss E : edges ss = Some E -> all_resolve ss.
Proof.
  intros HE s d Hin Hd. pose proof (edges_from_spec ss 0 ss) as S. unfold edges in HE. rewrite HE in S.
  destruct (proj1 S s d Hin Hd) as (j & Hj). destruct (index_of_some _ _ _ Hj) as (s' & Hn' & Hg).
  exists s'. split; auto. eapply nth_error_In; eauto.
Qed.

Lemma edges_none_iff ss : edges ss = None <-> ~ all_resolve ss.
Proof.
  split.
  - intros HN Hall. pose proof (edges_from_spec ss 0 ss) as S. unfold edges in HN. rewrite HN in S.
    destruct S as (s & d & Hin & Hd & Hi).
    destruct (Hall s d Hin Hd) as (s' & Hin' & Hg). exact (index_of_none ss d Hi s' Hin' Hg).
  - intros Hn. destruct (edges ss) as [E|] eqn:HE; [|reflexivity]. elim Hn. exact (edges_some_resolve ss E HE).
Qed.

Lemma clos_trans_map {A B : Type} (R : relation A) (S : relation B) (f : A -> B) :
  (forall x y, R x y -> S (f x) (f y)) -> forall x y, clos_trans A R x y -> clos_trans B S (f x) (f y).
Proof. intros Hf x y H. induction H; [apply t_step; auto | eapply t_trans; eauto]. Qed.

Section Transfer.
Variable ss : list gstep.
Variable E : list (nat * nat).
Hypothesis Hnd : NoDup (map gname ss).
Hypothesis HE : edges ss = Some E.

Lemma edge_spec j i : In (j, i) E <->
  exists s, nth_error ss i = Some s /\ exists d, In d (gdeps s) /\ index_of ss d = Some j.
Proof.
  pose proof (edges_from_spec ss 0 ss) as S. unfold edges in HE. rewrite HE in S. rewrite (proj2 S). split.
  - intros (p & s & Hn & -> & Hd). eauto.
  - intros (s & Hn & Hd). exists i, s. auto.
Qed.

Lemma edges_wf u v : In (u, v) E -> u < List.length ss /\ v < List.length ss.
Proof.
  intros H. apply edge_spec in H. destruct H as (s & Hn & d & Hd & Hi). split.
  - destruct (index_of_some _ _ _ Hi) as (s' & Hn' & _). apply nth_error_Some. congruence.
  - apply nth_error_Some. congruence.
Qed.

(* The dependency relation on names and the edge relation on indices are images of one another under
   index -> name of the step there, name -> index of the step so named: so are their transitive closures. *)
Definition name_of (j : nat) : string := match nth_error ss j with Some s => gname s | None => EmptyString end.
Definition idx (a : string) : nat := match index_of ss a with Some j => j | None => 0 end.

Lemma edge_to_rel j i : edge E j i -> dep_rel ss (name_of j) (name_of i).
Proof.
  intros H. apply edge_spec in H. destruct H as (si & Hn & d & Hd & Hi).
  destruct (index_of_some _ _ _ Hi) as (sj & Hnj & Hg). unfold name_of. rewrite Hn, Hnj, Hg.
  exists si. split; [eapply nth_error_In; eauto | auto].
Qed.

Lemma rel_to_edge a b : dep_rel ss a b -> edge E (idx a) (idx b).
Proof.
  intros (s & Hin & Hg & Hd).
  destruct (In_nth_error _ _ Hin) as (i & Hi).
  destruct (index_of_in ss a (edges_some_resolve ss E HE s a Hin Hd)) as (j & Hj).
  unfold idx. rewrite Hj, <- Hg, (index_of_nth ss i s Hnd Hi).
  apply edge_spec. exists s. split; auto. exists a. auto.
Qed.

Lemma acyclic_transfer : acyclic' E -> acyclic_names ss.
Proof. intros Hac x Hc. exact (Hac (idx x) (clos_trans_map _ _ idx rel_to_edge x x Hc)). Qed.

Lemma cycle_transfer a : clos_trans nat (edge E) a a -> exists x, clos_trans string (dep_rel ss) x x.
Proof. intros Hc. exists (name_of a). exact (clos_trans_map _ _ name_of edge_to_rel a a Hc). Qed.
End Transfer.

Theorem gaccept_missing_iff ss : gaccept ss = VMissing <-> ~ all_resolve ss.
Proof.
  unfold gaccept. rewrite <- edges_none_iff. destruct (edges ss) as [E|]; [|tauto].
  destruct (has_cycle (List.length ss) E); split; discriminate.
Qed.

Theorem gaccept_spec ss : NoDup (map gname ss) ->
  match gaccept ss with
  | VOk => all_resolve ss /\ acyclic_names ss
  | VMissing => ~ all_resolve ss
  | VCycle => all_resolve ss /\ exists x, clos_trans string (dep_rel ss) x x
  end.
Proof.
  intros Hnd. pose proof (gaccept_missing_iff ss) as Hm. unfold gaccept in *.
  destruct (edges ss) as [E|] eqn:HE; [|now apply Hm].
  pose proof (has_cycle_spec (List.length ss) E (edges_wf ss E HE)) as S.
  destruct (has_cycle (List.length ss) E); (split; [exact (edges_some_resolve ss E HE)|]).
  - destruct S as (a & Ha). exact (cycle_transfer ss E HE a Ha).
  - destruct S as (R & HR & Ht & Hall). apply (acyclic_transfer ss E Hnd HE).
    exact (topo_acyclic (List.length ss) E (edges_wf ss E HE) R HR Ht Hall).
Qed.

Theorem gaccept_ok_iff ss : NoDup (map gname ss) ->
  (gaccept ss = VOk <-> all_resolve ss /\ acyclic_names ss).
Proof.
  intros Hnd. pose proof (gaccept_spec ss Hnd) as S. destruct (gaccept ss); split; auto; try discriminate.
  - intros [Hres _]. contradiction.
  - intros [_ Hac]. destruct S as (_ & x & Hx). elim (Hac x Hx).
Qed.

Theorem gaccept_cycle_witness ss : NoDup (map gname ss) -> gaccept ss = VCycle ->
  all_resolve ss /\ exists x, clos_trans string (dep_rel ss) x x.
Proof. intros Hnd H. pose proof (gaccept_spec ss Hnd) as S. rewrite H in S. exact S. Qed.

Open Scope string_scope.
Definition mk (n : string) (ds : list string) := {| gname := n; gdeps := ds |}.
Example gaccept_diamond : gaccept [mk "a" []; mk "b" ["a"]; mk "c" ["a"]; mk "d" ["b"; "c"]] = VOk /\
  NoDup (map gname [mk "a" []; mk "b" ["a"]; mk "c" ["a"]; mk "d" ["b"; "c"]]).
Proof. split; [reflexivity|]. repeat constructor; simpl; intuition discriminate. Qed.
Example gaccept_self : gaccept [mk "a" ["a"]] = VCycle. Proof. reflexivity. Qed.
Example gaccept_two : gaccept [mk "a" ["b"]; mk "b" ["a"]] = VCycle. Proof. reflexivity. Qed.
Example gaccept_dangling : gaccept [mk "a" ["zz"]; mk "b" ["a"]] = VMissing. Proof. reflexivity. Qed.
