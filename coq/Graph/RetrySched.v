(* C10, execution part: the step scheduler (Sched/Model.v) started from the table a retry hands it - the recorded
   table after setupRetry, in which every step that is not recorded finished/skipped has been reset or was never
   started - instead of from `init`.  Lifts the Sched invariant and measure (Sched/ProofsRetry.v); it stands here, with the
   graph part of C10 (RetryProof.v), because it is about the retry, not about the scheduler as such. *)
From Coq Require Import List Arith Lia.
Import ListNotations.
From BD.Sched Require Import Model Proofs ProofsTerm ProofsRetry.

Section RetrySched.
Variable c : cfg.
Hypothesis Hnorep : norepeat c.
Variable tbl : nat -> nstatus.          (* the table after the reset: finished / skipped are kept, everything else runs afresh *)
Hypothesis Hcons : tbl_consistent c tbl.

Lemma retry_keeps j ls s : tbl j = NSuccess \/ tbl j = NSkipped ->
  run c (init_from c tbl) ls = Some s -> kept s j /\ ~ In (WExecStart j) ls.
Proof.
  intros Hj Hr. eapply executes_only_reset; eauto.
  - apply inv_init_from; assumption.
  - apply kept_init_from; assumption.
Qed.

Lemma retry_executes_only_unfinished j ls s : run c (init_from c tbl) ls = Some s -> In (WExecStart j) ls ->
  tbl j <> NSuccess /\ tbl j <> NSkipped.
Proof.
  intros Hr Hin. split; intros H; eapply (proj2 (retry_keeps j ls s (ltac:(tauto)) Hr)); exact Hin.
Qed.

Lemma retry_finite ls s : run c (init_from c tbl) ls = Some s -> length ls <= measure c (init_from c tbl).
Proof. intros Hr. eapply finite_from; eauto. apply inv_init_from; assumption. Qed.
End RetrySched.

(* non-vacuity: the diamond a -> {b, c} -> d of Sched/Examples.v, recorded with b failed (b and d reset): the retry
   executes b and d once each, a and c keep their results untouched, and the run reaches Done. *)
From BD.Sched Require Import Examples.
Definition retry_tbl (i : nat) : nstatus := match i with 0 => NSuccess | 2 => NSuccess | _ => NNone end.
Definition retry_ls : list label :=
  launch 1 ++ [WExecEnd 1 true; WAfter 1 false; WFinish 1] ++ launch 3 ++
  [WExecEnd 3 true; WAfter 3 false; WFinish 3; LExit; HBegin; HFinish].
Lemma retry_example_consistent : tbl_consistent diamond retry_tbl /\ norepeat diamond.
Proof.
  split; [|exact (proj2 diamond_ok)].
  intros i Hi d Hd. destruct i as [|[|[|[|i]]]]; cbn in Hi; try discriminate; cbn in Hd.
  - contradiction.
  - destruct Hd as [<-|[]]. left. reflexivity.
Qed.
Definition retry_obs : option (lpc * list (nstatus * nat)) :=
  match run diamond (init_from diamond retry_tbl) retry_ls with
  | Some s => Some (pc s, map (fun i => (st (nd s i), att (nd s i))) [0;1;2;3])
  | None => None
  end.
Lemma retry_example_run :
  retry_obs = Some (LDone, [(NSuccess, 0); (NSuccess, 1); (NSuccess, 0); (NSuccess, 1)]).
Proof. vm_compute. reflexivity. Qed.
