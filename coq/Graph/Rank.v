(* Link between C14 (admission) and the step-scheduler model: a graph that passes the cycle check has a rank function
   that strictly decreases along dependency edges - the premise `wf_deps` of the scheduler's progress theorems
   (Sched/ProofsTerm.v) - so every accepted DAG satisfies it. *)
From Coq Require Import List Arith Bool Lia PeanoNat Relations.
Import ListNotations.
From BD.Graph Require Import Kahn KahnLemmas KahnProof.

Section Rank.
Variable n : nat.
Variable E : list (nat * nat).
Hypothesis wfE : forall u v, In (u, v) E -> u < n /\ v < n.

Notation edge := (edge E).

(* the elimination order of an acyclic graph: every node, each once, predecessors later in the list *)
Lemma topo_order : has_cycle n E = false ->
  exists R, NoDup R /\ topo E R /\ forall v, v < n -> In v R.
Proof. intros H. pose proof (has_cycle_spec n E wfE) as S. rewrite H in S. exact S. Qed.

Theorem acyclic_rank : has_cycle n E = false ->
  exists rk : nat -> nat, forall w v, edge w v -> rk w < rk v.
Proof.
  intros Hc. destruct (topo_order Hc) as (R & Hnd & Ht & Hall).
  exists (rank_in R). intros w v He. apply (rank_in_edge E); auto.
  apply Hall. apply wfE in He. tauto.
Qed.
End Rank.
