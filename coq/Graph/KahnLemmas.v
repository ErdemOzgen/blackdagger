(* Counting for the cycle check of Graph/Kahn.v: `cnt R v` (edges into v from outside R) loses `mult u v` when u
   is eliminated (`cnt_pop`), and the inner loop `dec_list` subtracts exactly these multiplicities and queues the nodes
   that reach 0 (`dec_list_spec`). *)
From Coq Require Import List Arith Bool Lia PeanoNat Relations.
Import ListNotations.
From BD.Graph Require Import Kahn.

Section Proofs.
Variable E : list (nat * nat).

Notation succs := (succs E).
Notation indeg := (indeg E).
Notation cnt := (cnt E).
Notation edge := (edge E).

Lemma memb_cons x u R : memb x (u :: R) = (x =? u) || memb x R.
Proof. reflexivity. Qed.

Lemma cnt_nil v : cnt [] v = indeg v.
Proof. unfold Kahn.cnt, Kahn.indeg. f_equal. apply filter_ext. intros [a b]. simpl. now rewrite andb_true_r. Qed.

Definition mult (u v : nat) := count_occ Nat.eq_dec (succs u) v.

Lemma cnt_pop R u v : ~ In u R -> cnt R v = cnt (u :: R) v + mult u v.
Proof.
  intros Hu. assert (Hmu : memb u R = false) by (apply memb_nIn; auto).
  unfold Kahn.cnt, mult, Kahn.succs. induction E as [|[a b] L IH]; [reflexivity|].
  cbn [filter fst snd]. rewrite memb_cons.
  destruct (Nat.eqb_spec b v) as [->|Hb]; destruct (Nat.eqb_spec a u) as [->|Ha];
    cbn [andb orb negb map snd length].
  - rewrite Hmu, count_occ_cons_eq by reflexivity. cbn [negb length]. lia.
  - destruct (memb a R); cbn [negb length]; lia.
  - rewrite count_occ_cons_neq by exact Hb. exact IH.
  - exact IH.
Qed.

Lemma cnt_zero_preds R v : cnt R v = 0 -> forall w, edge w v -> In w R.
Proof.
  unfold Kahn.cnt, Kahn.edge. intros H w Hw.
  apply length_zero_iff_nil in H.
  destruct (memb w R) eqn:Hm; [now apply memb_In|].
  exfalso. assert (In (w, v) (filter (fun e => (snd e =? v) && negb (memb (fst e) R)) E)) as Hin.
  { apply filter_In. split; auto. simpl. now rewrite Nat.eqb_refl, Hm. }
  rewrite H in Hin. inversion Hin.
Qed.

Lemma cnt_pos_pred R v : cnt R v <> 0 -> exists w, edge w v /\ ~ In w R.
Proof.
  unfold Kahn.cnt, Kahn.edge. intros H.
  destruct (filter (fun e => (snd e =? v) && negb (memb (fst e) R)) E) as [|[a b] l] eqn:Hf; [simpl in H; congruence|].
  assert (In (a, b) (filter (fun e => (snd e =? v) && negb (memb (fst e) R)) E)) as Hin by (rewrite Hf; left; auto).
  apply filter_In in Hin. destruct Hin as [HinE Hp]. simpl in Hp.
  apply andb_true_iff in Hp. destruct Hp as [Hb Hm]. apply Nat.eqb_eq in Hb. subst b.
  exists a. split; auto. apply memb_nIn. now apply negb_true_iff.
Qed.

Lemma mult_pos_In u v : mult u v <> 0 <-> In v (succs u).
Proof. unfold mult. rewrite (count_occ_In Nat.eq_dec). lia. Qed.

Lemma succs_edge u v : In v (succs u) <-> edge u v.
Proof.
  unfold Kahn.succs, Kahn.edge. rewrite in_map_iff. split.
  - intros [[a b] [Hb Hin]]. simpl in Hb. subst b. apply filter_In in Hin. destruct Hin as [Hin Ha].
    simpl in Ha. apply Nat.eqb_eq in Ha. now subst.
  - intros H. exists (u, v). split; auto. apply filter_In. split; auto. simpl. apply Nat.eqb_refl.
Qed.

(* the inner loop: every degree falls by the multiplicity (`-` on nat stops at 0, like `pred`), and a node is queued
   at the occurrence that takes its degree from 1 to 0 - so once, and only if there are that many occurrences *)
Lemma dec_list_spec : forall vs deg acc,
  exists deg' zs, dec_list deg vs acc = (deg', acc ++ zs)
    /\ (forall w, deg' w = deg w - count_occ Nat.eq_dec vs w)
    /\ NoDup zs
    /\ (forall z, In z zs <-> 1 <= deg z <= count_occ Nat.eq_dec vs z).
Proof.
  induction vs as [|v vs IH]; intros deg acc.
  - exists deg, []. cbn [dec_list]. rewrite app_nil_r. split; [reflexivity|]. split; [|split].
    + intros w. simpl. lia.
    + constructor.
    + intros z. simpl. split; [contradiction|lia].
  - cbn [dec_list].
    assert (Hupd : forall z, z <> v -> upd deg v (pred (deg v)) z = deg z
                                       /\ count_occ Nat.eq_dec (v :: vs) z = count_occ Nat.eq_dec vs z).
    { intros z Hz. unfold upd. rewrite (proj2 (Nat.eqb_neq z v) Hz), count_occ_cons_neq by congruence. auto. }
    assert (Hv : upd deg v (pred (deg v)) v = pred (deg v)) by (unfold upd; now rewrite Nat.eqb_refl).
    pose proof (count_occ_cons_eq Nat.eq_dec vs (eq_refl v)) as Hcv.
    assert (Hdeg : forall deg', (forall w, deg' w = upd deg v (pred (deg v)) w - count_occ Nat.eq_dec vs w) ->
                   forall w, deg' w = deg w - count_occ Nat.eq_dec (v :: vs) w).
    { intros deg' Hd w. rewrite Hd. destruct (Nat.eq_dec w v) as [->|Hw]; [rewrite Hv, Hcv | destruct (Hupd w Hw) as [-> ->]]; lia. }
    destruct (Nat.eqb_spec (deg v) 1) as [H1|H1].
    + destruct (IH (upd deg v (pred (deg v))) (acc ++ [v])) as (deg' & zs & Heq & Hd & Hnd & Hz).
      exists deg', (v :: zs). rewrite Heq, <- app_assoc. split; [reflexivity|]. split; [|split]; auto.
      * constructor; auto. rewrite Hz, Hv. lia.
      * intros z. cbn [In]. rewrite Hz. destruct (Nat.eq_dec z v) as [->|Hzv]; [rewrite Hv, Hcv; lia|].
        destruct (Hupd z Hzv) as [-> ->]. intuition congruence.
    + destruct (IH (upd deg v (pred (deg v))) acc) as (deg' & zs & Heq & Hd & Hnd & Hz).
      exists deg', zs. rewrite Heq. split; [reflexivity|]. split; [|split]; auto.
      intros z. rewrite Hz. destruct (Nat.eq_dec z v) as [->|Hzv]; [rewrite Hv, Hcv; lia|].
      destruct (Hupd z Hzv) as [-> ->]. reflexivity.
Qed.
End Proofs.
