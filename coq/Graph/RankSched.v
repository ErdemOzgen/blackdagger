(* Every DAG that passes graph admission (C14: names resolve, Kahn check finds no cycle) satisfies the premise
   `wf_deps` of the step scheduler's progress theorems (C15_progress, C15_can_complete, C05_can_complete). *)
From Coq Require Import List Arith Bool Lia PeanoNat.
Import ListNotations.
From BD.Graph Require Import Kahn KahnLemmas KahnProof Rank.
From BD.Sched Require Import Model Proofs ProofsTerm.

Definition cfg_edges (c : cfg) : list (nat * nat) :=
  flat_map (fun i => map (fun d => (d, i)) (deps (steps c i))) (seq 0 (nsteps c)).

Lemma cfg_edges_in c d i : In (d, i) (cfg_edges c) <-> i < nsteps c /\ In d (deps (steps c i)).
Proof.
  unfold cfg_edges. rewrite in_flat_map. split.
  - intros (j & Hj & Hin). apply in_seq in Hj. apply in_map_iff in Hin. destruct Hin as (d' & Heq & Hd).
    injection Heq as <- <-. split; [lia|exact Hd].
  - intros [Hi Hd]. exists i. split; [apply in_seq; lia|]. apply in_map_iff. exists d. auto.
Qed.

Theorem accepted_graph_wf_deps (c : cfg) :
  (forall i d, i < nsteps c -> In d (deps (steps c i)) -> d < nsteps c) ->     (* every depends entry resolves *)
  has_cycle (nsteps c) (cfg_edges c) = false ->                                  (* the code's cycle check passes *)
  wf_deps c.
Proof.
  intros Hres Hc.
  assert (HwfE : forall u v, In (u, v) (cfg_edges c) -> u < nsteps c /\ v < nsteps c).
  { intros u v H. apply cfg_edges_in in H. destruct H as [Hv Hu]. split; [eapply Hres; eauto|exact Hv]. }
  destruct (acyclic_rank (nsteps c) (cfg_edges c) HwfE Hc) as (rk & Hrk).
  exists rk. intros i d Hi Hd. split; [eapply Hres; eauto|].
  apply Hrk. unfold edge. apply cfg_edges_in. auto.
Qed.

From BD.Sched Require Import Examples.
Example diamond_accepted : has_cycle (nsteps diamond) (cfg_edges diamond) = false /\
  (forall i d, i < nsteps diamond -> In d (deps (steps diamond i)) -> d < nsteps diamond).
Proof.
  split; [vm_compute; reflexivity|].
  intros i d Hi Hd. change (nsteps diamond) with 4 in *.
  destruct i as [|[|[|[|i]]]]; cbn in Hd; try lia; intuition lia.
Qed.

(* ... hence every run of an accepted DAG can be driven to completion from any reachable state, and is never stuck:
   the scheduler model needs no other guard against non-termination than graph admission (the property's remark
   "if a cyclic graph were accepted the run would never terminate"). *)
Theorem accepted_graph_completes (c : cfg) : norepeat c ->
  (forall i d, i < nsteps c -> In d (deps (steps c i)) -> d < nsteps c) ->
  has_cycle (nsteps c) (cfg_edges c) = false ->
  forall s, Reach c s -> exists ls s', run c s ls = Some s' /\ pc s' = LDone.
Proof. intros Hn Hres Hc s Hr. eapply can_complete; eauto. now apply accepted_graph_wf_deps. Qed.
