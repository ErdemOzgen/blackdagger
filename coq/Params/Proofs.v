(* Params - theorems for C11: the documented parameter forms parse to their names and values (parse_doc); the string
   model.Params records re-parses to the parameters, because quoteParam writes documented forms (to_item,
   record_parse_gen); a captured output reaches every later command and every retry (output_final, reinstall_id). *)
From Coq Require Import List String Ascii Bool Arith Lia.
Import ListNotations.
From BD.Params Require Import Model.

Definition L (s : string) : la := list_ascii_of_string s.

Lemma aeq_refl c : aeq c c = true.
Proof. apply Ascii.eqb_refl. Qed.
Lemma aeq_eq a b : aeq a b = true <-> a = b.
Proof. apply Ascii.eqb_eq. Qed.
Lemma aeq_neq a b : aeq a b = false <-> a <> b.
Proof. apply Ascii.eqb_neq. Qed.

Lemma space_differs c d : is_space c = true -> is_space d = false -> aeq c d = false.
Proof. intros Hc Hd. apply aeq_neq. intros ->. congruence. Qed.
Lemma space_not_eq c : is_space c = true -> aeq c eqc = false.
Proof. intros H. now apply space_differs. Qed.

(* the character classes of the tokenizer ([^\s=Q], [^Q\s]) and of quoteParam (clean, simple) against each other *)
Lemma not_sp_eq_iff c : not_sp_eq c = true <-> clean_ch c = true /\ aeq c eqc = false.
Proof. unfold not_sp_eq, clean_ch. destruct (is_space c), (aeq c eqc), (aeq c dq); simpl; intuition congruence. Qed.
Lemma clean_not_q_sp c : clean_ch c = not_q_sp c.
Proof. apply andb_comm. Qed.
Lemma simple_clean c : simple_ch c = true -> clean_ch c = true /\ aeq c bt = false.
Proof. unfold simple_ch, clean_ch. destruct (aeq c bt); rewrite ?andb_true_r, ?andb_false_r; intuition congruence. Qed.

Lemma forallb_clean v : forallb clean_ch v = forallb not_q_sp v.
Proof. induction v as [|c v IH]; simpl; [|rewrite IH, clean_not_q_sp]; reflexivity. Qed.
Lemma forallb_not_sp_eq v :
  forallb not_sp_eq v = true <-> forallb clean_ch v = true /\ forallb (fun x => negb (aeq x eqc)) v = true.
Proof.
  induction v as [|c v IH]; simpl; [tauto|].
  rewrite !andb_true_iff, IH, not_sp_eq_iff, negb_true_iff. tauto.
Qed.

Definition stops (p : ascii -> bool) (rest : la) : Prop :=
  match rest with [] => True | c :: _ => p c = false end.

Lemma span_app p a rest : forallb p a = true -> stops p rest -> span p (a ++ rest) = (a, rest).
Proof.
  induction a as [|c a IH]; simpl; intros Ha Hr.
  - destruct rest as [|c r]; simpl in *; [reflexivity | now rewrite Hr].
  - apply andb_true_iff in Ha as [Hc Ha]. rewrite Hc, (IH Ha Hr). reflexivity.
Qed.

Lemma span_stop p c r : p c = false -> span p (c :: r) = ([], c :: r).
Proof. simpl. now intros ->. Qed.

Lemma escape_app a b : escape (a ++ b) = escape a ++ escape b.
Proof.
  induction a as [|c a IH]; simpl; [reflexivity|].
  destruct (aeq c dq); simpl; now rewrite IH.
Qed.

Lemma escape_head_not_dq v : head_is dq (escape v) = false.
Proof.
  destruct v as [|c r]; simpl; [reflexivity|].
  destruct (aeq c dq) eqn:E; simpl; [reflexivity | exact E].
Qed.

Lemma unescape_step c s : head_is dq s = false -> unescape (c :: s) = c :: unescape s.
Proof. destruct s as [|d s]; [reflexivity|]. cbn. intros ->. now rewrite andb_false_r. Qed.

Lemma unescape_escape v : unescape (escape v) = v.
Proof.
  induction v as [|c r IH]; [reflexivity|]. cbn [escape]. destruct (aeq c dq) eqn:E.
  - apply aeq_eq in E. subst c. cbn. now rewrite IH.
  - now rewrite unescape_step, IH by apply escape_head_not_dq.
Qed.

Lemma last_is_cons c x r : last_is c (x :: r) = match r with [] => aeq x c | _ => last_is c r end.
Proof.
  unfold last_is. simpl. destruct r as [|y r]; [reflexivity|].
  simpl. destruct (rev r ++ [y]) eqn:E.
  - destruct (rev r); discriminate.
  - reflexivity.
Qed.

Lemma last_is_snoc c v x : last_is c (v ++ [x]) = aeq x c.
Proof. unfold last_is. rewrite rev_app_distr. reflexivity. Qed.

Lemma post_quoted v : post (quoted v) = v.
Proof.
  unfold post, quoted. change (aeq dq dq) with true. cbv iota.
  rewrite removelast_last. apply unescape_escape.
Qed.

Lemma post_bare v : head_is dq v = false -> post v = v.
Proof. destruct v as [|c r]; simpl; [reflexivity | now intros ->]. Qed.

Lemma v1_step c s : aeq c dq = false -> aeq c bs = false \/ head_is dq s = false ->
  v1 (c :: s) = match v1 s with Some (b, rest) => Some (c :: b, rest) | None => None end.
Proof.
  intros H1 H2. cbn [v1]. rewrite H1. destruct (aeq c bs); [|reflexivity].
  destruct H2 as [H2|H2]; [discriminate|]. destruct s as [|d s]; [reflexivity|]. cbn [head_is] in H2. now rewrite H2.
Qed.

Lemma v1_bs_dq s : v1 (bs :: dq :: s) =
  match v1 s with Some (b, rest) => Some (bs :: dq :: b, rest) | None => Some ([bs], s) end.
Proof. reflexivity. Qed.

Lemma v1_escape v rest : last_is bs v = false -> v1 (escape v ++ dq :: rest) = Some (escape v, rest).
Proof.
  induction v as [|c r IH]; intros Hl; [reflexivity|].
  rewrite last_is_cons in Hl. cbn [escape]. destruct (aeq c dq) eqn:Ecq.
  - (* an escaped quote *)
    assert (Hr : last_is bs r = false) by (destruct r; [reflexivity | exact Hl]).
    cbn [app]. now rewrite v1_bs_dq, (IH Hr).
  - cbn [app]. destruct r as [|d r'].
    + rewrite v1_step; [reflexivity | exact Ecq | now left].
    + (* a backslash here is not the last character, and what follows it is not a bare quote *)
      rewrite v1_step, (IH Hl); [reflexivity | exact Ecq | right].
      cbn [escape]. destruct (aeq d dq) eqn:E; [reflexivity | exact E].
Qed.

Lemma value_dq r : value (dq :: r) =
  match v1 r with Some (b, rest) => Some (dq :: b ++ [dq], rest) | None => bare (dq :: r) end.
Proof. reflexivity. Qed.

Lemma value_quoted v rest : qval_ok v = true -> value (quoted v ++ rest) = Some (quoted v, rest).
Proof.
  unfold qval_ok. intros H%negb_true_iff. unfold quoted. cbn [app]. rewrite value_dq.
  rewrite <- app_assoc. cbn [app]. now rewrite (v1_escape v rest H).
Qed.

Lemma word_ok_inv v : word_ok v = true ->
  exists c r, v = c :: r /\ aeq c dq = false /\ aeq c bt = false /\ forallb not_q_sp v = true.
Proof.
  unfold word_ok. intros H. apply andb_true_iff in H as [H Hb]. apply andb_true_iff in H as [Hn Hf].
  destruct v as [|c r]; [discriminate|]. exists c, r. repeat split; try assumption.
  - simpl in Hf. apply andb_true_iff in Hf as [Hc _]. unfold not_q_sp in Hc.
    apply andb_true_iff in Hc as [Hc _]. now apply negb_true_iff in Hc.
  - simpl in Hb. now apply negb_true_iff in Hb.
Qed.

Definition sep_ok (rest : la) : Prop := rest = [] \/ exists t, rest = spc :: t.

Lemma sep_stops p rest : p spc = false -> sep_ok rest -> stops p rest.
Proof. intros H [->|[t ->]]; [exact I | exact H]. Qed.

Lemma value_word v rest : word_ok v = true -> sep_ok rest -> value (v ++ rest) = Some (v, rest).
Proof.
  intros Hw Hs. destruct (word_ok_inv v Hw) as (c & r & -> & Hq & Hb & Hf).
  simpl app. unfold value. rewrite Hq, Hb. unfold bare.
  change (c :: r ++ rest) with ((c :: r) ++ rest).
  rewrite (span_app not_q_sp (c :: r) rest Hf (sep_stops _ rest eq_refl Hs)). reflexivity.
Qed.

Lemma value_space c r : is_space c = true -> value (c :: r) = None.
Proof.
  intros H. unfold value. rewrite (space_differs c dq H), (space_differs c bt H) by reflexivity. unfold bare.
  rewrite span_stop; [reflexivity|]. unfold not_q_sp. rewrite H. now rewrite andb_false_r.
Qed.

(* the unnamed reading of a match, as the `let` inside Model.token has it: the lemmas below need to name it *)
Definition unnamed (s : la) : option (la * la * la) :=
  match value s with Some (v, rest) => Some ([], v, rest) | None => None end.

Lemma token_unnamed nm after : forallb not_sp_eq nm = true -> stops not_sp_eq after ->
  nm = [] \/ head_is eqc after = false -> token (nm ++ after) = unnamed (nm ++ after).
Proof.
  intros Hn Hs H. unfold token, unnamed. rewrite (span_app _ _ _ Hn Hs).
  destruct H as [->|H]; [reflexivity|]. destruct nm; [reflexivity|].
  destruct after as [|e a']; [reflexivity|]. cbn [head_is] in H. now rewrite H.
Qed.

Lemma token_unnamed_stop s : stops not_sp_eq s -> token s = unnamed s.
Proof. intros H. now apply (token_unnamed [] s); [| |left]. Qed.

Lemma span_snd_pass p c r : p c = true -> snd (span p (c :: r)) = snd (span p r).
Proof. cbn [span]. intros ->. now destruct (span p r). Qed.
Lemma span_snd_stop p c r : p c = false -> snd (span p (c :: r)) = c :: r.
Proof. cbn [span]. now intros ->. Qed.

Lemma token_word v rest : word_ok v = true -> no_inner_eq v = true -> sep_ok rest ->
  token (v ++ rest) = Some ([], v, rest).
Proof.
  intros Hw He Hs. destruct (word_ok_inv v Hw) as (c & r & E & Hq & Hb & Hf).
  enough (token (v ++ rest) = unnamed (v ++ rest)) as ->; [unfold unnamed; now rewrite (value_word v rest Hw Hs)|].
  unfold no_inner_eq in He. apply orb_true_iff in He as [He|He].
  - (* starts with = : the name-like run is empty *)
    subst v. cbn [head_is] in He. apply aeq_eq in He. subst c. now apply token_unnamed_stop.
  - apply token_unnamed; [apply forallb_not_sp_eq; now rewrite forallb_clean | exact (sep_stops _ rest eq_refl Hs) | right].
    now destruct Hs as [->|[t ->]].
Qed.

Lemma name_ok_inv n : name_ok n = true -> exists c r, n = c :: r /\ forallb not_sp_eq n = true.
Proof.
  unfold name_ok. intros H. apply andb_true_iff in H as [Hn Hf].
  destruct n as [|c r]; [discriminate|]. now exists c, r.
Qed.

Lemma token_named n raw rest tail : name_ok n = true -> value tail = Some (raw, rest) ->
  token (n ++ eqc :: tail) = Some (n, raw, rest).
Proof.
  intros Hn Hv. destruct (name_ok_inv n Hn) as (c & r & -> & Hf).
  unfold token. rewrite (span_app not_sp_eq (c :: r) (eqc :: tail) Hf); [|reflexivity].
  rewrite aeq_refl. now rewrite Hv.
Qed.

Lemma token_quoted v rest : qval_ok v = true -> token (quoted v ++ rest) = Some ([], quoted v, rest).
Proof.
  intros Hq. rewrite token_unnamed_stop by reflexivity.
  unfold unnamed. now rewrite (value_quoted v rest Hq).
Qed.

Definition item_raw (it : item) : la :=
  match it with IWord v => v | IQuoted v => quoted v | INamed _ v => v | INamedQ _ v => quoted v end.

Lemma token_item it rest : v0_item it = true -> sep_ok rest ->
  token (render_item it ++ rest) = Some (fst (item_pair it), item_raw it, rest).
Proof.
  destruct it as [v|v|n v|n v]; simpl; intros H Hs; try apply andb_true_iff in H as [H1 H2].
  - now apply token_word.
  - now apply token_quoted.
  - rewrite <- app_assoc. simpl. apply token_named; [assumption|]. now apply value_word.
  - rewrite <- app_assoc. simpl. apply token_named; [assumption|]. now apply value_quoted.
Qed.

Lemma word_post v : word_ok v = true -> post v = v.
Proof. intros H. destruct (word_ok_inv v H) as (c & r & -> & Hq & _). now apply post_bare. Qed.

Lemma post_item it : v0_item it = true -> post (item_raw it) = snd (item_pair it).
Proof.
  destruct it as [v|v|n v|n v]; simpl; intros H; try apply post_quoted;
    apply andb_true_iff in H as [H1 H2]; now apply word_post.
Qed.

Lemma render_nonempty it : v0_item it = true -> render_item it <> [].
Proof. now destruct it as [[|c v]|v|[|c n] v|[|c n] v]. Qed.

Lemma skip_app a b : tokens_skip (List.length a) (a ++ b) = tokens_skip 0 b.
Proof. induction a as [|c a IH]; simpl; [reflexivity | exact IH]. Qed.

Lemma tokens_one t rest nm raw : t <> [] -> token (t ++ rest) = Some (nm, raw, rest) ->
  tokens_skip 0 (t ++ rest) = (nm, post raw) :: tokens_skip 0 rest.
Proof.
  intros Ht Hk. destruct t as [|c t']; [contradiction|].
  simpl app in *. cbn [tokens_skip]. rewrite Hk. f_equal.
  replace (List.length (c :: t' ++ rest) - List.length rest - 1) with (List.length t').
  - apply skip_app.
  - cbn [List.length]. rewrite app_length. lia.
Qed.

Lemma tokens_sep rest : tokens_skip 0 (spc :: rest) = tokens_skip 0 rest.
Proof.
  cbn [tokens_skip].
  rewrite token_unnamed_stop by reflexivity.
  unfold unnamed. now rewrite (value_space spc rest eq_refl).
Qed.

Lemma tokens_item it rest : v0_item it = true -> sep_ok rest ->
  tokens_skip 0 (render_item it ++ rest) = item_pair it :: tokens_skip 0 rest.
Proof.
  intros Hi Hs. rewrite (tokens_one _ _ _ _ (render_nonempty it Hi) (token_item it rest Hi Hs)), (post_item it Hi).
  now destruct (item_pair it).
Qed.

Lemma join_cons x l : join (x :: l) = x ++ match l with [] => [] | _ => spc :: join l end.
Proof. destruct l; simpl; [now rewrite app_nil_r | reflexivity]. Qed.

Theorem parse_doc : forall its, V0 its = true -> parse (doc_render its) = values its.
Proof.
  unfold parse, tokens, doc_render, values, V0.
  induction its as [|it its IH]; intros HV; [reflexivity|].
  simpl in HV. apply andb_true_iff in HV as [Hi HV]. specialize (IH HV).
  destruct its as [|it2 its']; cbn [map]; rewrite join_cons; cbv iota.
  - now rewrite (tokens_item it [] Hi (or_introl eq_refl)).
  - rewrite (tokens_item it _ Hi (or_intror (ex_intro _ _ eq_refl))), tokens_sep. now f_equal.
Qed.

(* what quoteParam makes of a stringified parameter, as a documented item *)
Definition to_item (st : la) : item :=
  let '(nm, v) := qsplit st in
  if plain nm v then match nm with [] => IWord v | _ => INamed nm v end
  else match nm with [] => IQuoted v | _ => INamedQ nm v end.

Lemma cut_eq_spec s a b : cut_eq s = Some (a, b) -> s = a ++ eqc :: b /\ forallb (fun x => negb (aeq x eqc)) a = true.
Proof.
  revert a b; induction s as [|c r IH]; intros a b H; [discriminate|].
  cbn [cut_eq] in H. destruct (aeq c eqc) eqn:E.
  - injection H as <- <-. apply aeq_eq in E. subst c. now split.
  - destruct (cut_eq r) as [[a' b']|]; [|discriminate]. injection H as <- <-.
    destruct (IH a' b' eq_refl) as [-> Hn]. split; [reflexivity|]. cbn [forallb]. now rewrite E, Hn.
Qed.

Lemma cut_eq_none s : cut_eq s = None -> forallb (fun x => negb (aeq x eqc)) s = true.
Proof.
  induction s as [|c r IH]; [reflexivity|]. cbn [cut_eq]. destruct (aeq c eqc) eqn:E; [discriminate|].
  destruct (cut_eq r) as [[a b]|] eqn:Er; [discriminate|]. intros _. cbn [forallb]. now rewrite E, IH.
Qed.

Lemma cut_eq_app n v : forallb (fun x => negb (aeq x eqc)) n = true -> cut_eq (n ++ eqc :: v) = Some (n, v).
Proof.
  induction n as [|c n IH]; intros H; cbn [app cut_eq].
  - now rewrite aeq_refl.
  - cbn [forallb] in H. apply andb_true_iff in H as [Hc H]. apply negb_true_iff in Hc. now rewrite Hc, (IH H).
Qed.

Lemma plain_nil v : plain [] v = true -> no_inner_eq v = true.
Proof.
  unfold plain. cbn [is_nil negb orb]. intros H. apply andb_true_iff in H as [_ H].
  unfold no_inner_eq. now rewrite H, orb_true_r.
Qed.

Lemma qsplit_cases st :
  qsplit st = ([], st) \/ exists n v, name_ok n = true /\ st = n ++ eqc :: v /\ qsplit st = (n, v).
Proof.
  unfold qsplit. destruct (cut_eq st) as [[[|a a'] b]|] eqn:E; auto.
  destruct (forallb clean_ch (a :: a')) eqn:Ec; auto.
  destruct (cut_eq_spec _ _ _ E) as [-> Hn]. right. exists (a :: a'), b. repeat split.
  unfold name_ok. cbn [nonempty andb]. now apply forallb_not_sp_eq.
Qed.

Lemma plain_word nm v : plain nm v = true -> word_ok v = true.
Proof.
  unfold plain, word_ok. intros H. apply andb_true_iff in H as [H _]. apply andb_true_iff in H as [Hn Hs].
  destruct v as [|c r]; [discriminate|]. cbn [nonempty andb].
  assert (forallb not_q_sp (c :: r) = true /\ head_is bt (c :: r) = false) as [-> ->]; [|reflexivity].
  rewrite forallb_forall in Hs. split.
  - rewrite <- forallb_clean. apply forallb_forall. intros x Hx. now apply simple_clean, Hs.
  - apply (simple_clean c), Hs. now left.
Qed.

Lemma to_item_render st : render_item (to_item st) = quote_param st.
Proof.
  unfold to_item, quote_param. destruct (qsplit_cases st) as [->|(n & v & Hn & -> & ->)].
  - now destruct (plain [] st).
  - destruct (name_ok_inv n Hn) as (c & r & -> & _). destruct (plain _ v); cbn [render_item]; [reflexivity|].
    now rewrite <- app_assoc.
Qed.

Lemma to_item_pair st : item_pair (to_item st) = qsplit st.
Proof. unfold to_item. destruct (qsplit st) as [nm v]. destruct (plain nm v); destruct nm; reflexivity. Qed.

Lemma to_item_v0 st : bs_ok st = true -> v0_item (to_item st) = true.
Proof.
  unfold bs_ok, to_item. destruct (qsplit_cases st) as [->|(n & v & Hn & -> & ->)]; intros Hb.
  - destruct (plain [] st) eqn:Ep; cbn [v0_item]; [|exact Hb].
    now rewrite (plain_word _ _ Ep), (plain_nil _ Ep).
  - destruct (name_ok_inv n Hn) as (c & r & E & _). rewrite E in *.
    destruct (plain _ v) eqn:Ep; cbn [v0_item]; rewrite Hn; [exact (plain_word _ _ Ep) | exact Hb].
Qed.

(* re-parsing the recorded text gives the parameters as quoteParam read them: for ANY list of stringified
   parameters none of which has to be quoted while ending in a backslash *)
Theorem record_parse_gen : forall l : list la, forallb bs_ok l = true ->
  parse (join (map quote_param l)) = map qsplit l.
Proof.
  intros l H.
  replace (map quote_param l) with (map render_item (map to_item l))
    by (rewrite map_map; apply map_ext; intros; apply to_item_render).
  change (join (map render_item (map to_item l))) with (doc_render (map to_item l)).
  rewrite parse_doc.
  - unfold values. rewrite map_map. apply map_ext. intros; apply to_item_pair.
  - unfold V0. rewrite forallb_forall in *. intros x Hx. apply in_map_iff in Hx as (p & <- & Hp).
    apply to_item_v0. now apply H.
Qed.

Lemma stringify_qsplit st : stringify (qsplit st) = st.
Proof.
  destruct (qsplit_cases st) as [->|(n & v & Hn & -> & ->)]; [reflexivity|].
  now destruct (name_ok_inv n Hn) as (c & r & -> & _).
Qed.

Lemma v1_qsplit p : v1_pair p = true -> qsplit (stringify p) = p /\ bs_ok (stringify p) = true.
Proof.
  unfold v1_pair. intros H. apply andb_true_iff in H as [Hb H]. split; [|exact Hb].
  destruct p as [[|n0 n] v]; [cbn [fst snd stringify] in *|cbn [fst snd] in H].
  - unfold qsplit in *. destruct (cut_eq v) as [[[|a a'] b]|]; try reflexivity.
    destruct (forallb clean_ch (a :: a')); [discriminate | reflexivity].
  - unfold name_ok in H. cbn [nonempty andb] in H.
    apply forallb_not_sp_eq in H as [H2 H1]. unfold qsplit.
    change (stringify (n0 :: n, v)) with ((n0 :: n) ++ eqc :: v).
    rewrite (cut_eq_app (n0 :: n) v H1). now rewrite H2.
Qed.

Theorem record_parse : forall ps, V1 ps = true -> parse (record ps) = ps.
Proof.
  intros ps H. unfold record, V1 in *. rewrite forallb_forall in H.
  rewrite record_parse_gen.
  - rewrite map_map. rewrite <- (map_id ps) at 2. apply map_ext_in. intros p Hp. now apply v1_qsplit, H.
  - rewrite forallb_forall. intros x Hx. apply in_map_iff in Hx as (p & <- & Hp). now apply v1_qsplit, H.
Qed.

Corollary roundtrip_doc : forall its, V0 its = true -> V1 (values its) = true ->
  parse (record (parse (doc_render its))) = parse (doc_render its).
Proof. intros its H0 H1. rewrite (parse_doc its H0). now apply record_parse. Qed.

Lemma assigns_from_nth : forall ps k i p, nth_error ps i = Some p ->
  In (dec (k + i), stringify p) (assigns_from k ps) /\ (fst p <> [] -> In p (assigns_from k ps)).
Proof.
  induction ps as [|q ps IH]; intros k [|i] p H; try discriminate; simpl in *.
  - injection H as ->. split; [left; now rewrite Nat.add_0_r|].
    intros Hn. right. apply in_or_app. left. destruct p as [[|a l] v]; [now elim Hn | now left].
  - destruct (IH (S k) i p H) as [H1 H2]. rewrite Nat.add_succ_comm in H1.
    split; [|intros Hn]; right; apply in_or_app; right; auto.
Qed.

(* Without the premises V0 / V1 both are false of the model (witnesses: Props/C11.v):
     forall its, parse (doc_render its) = values its
     forall its, parse (record (parse (doc_render its))) = parse (doc_render its) *)

(* before fix 92cc1cc (model.Params was the plain join of the values) these came back as a, b, c / X=a, b  [F11a] *)
Example roundtrip_fixed :
  parse (record (parse (doc_render [IQuoted (L "a b"); IWord (L "c")]))) = parse (doc_render [IQuoted (L "a b"); IWord (L "c")]) /\
  parse (record (parse (doc_render [INamedQ (L "X") (L "a b")]))) = parse (doc_render [INamedQ (L "X") (L "a b")]) /\
  record (parse (doc_render [IQuoted (L "a b"); IWord (L "c"); IQuoted []])) = L """a b"" c """"".
Proof. repeat split; reflexivity. Qed.

(* before fix 0f1faec (strings.Trim stripped every outer quote) this value lost its final quote
   and kept the backslash of the escape  [F11b] *)
Example parse_doc_fixed_edge_quote :
  let v := list_ascii_of_string "say " ++ dq :: list_ascii_of_string "hi" ++ [dq] in
  parse (doc_render [IQuoted v]) = values [IQuoted v].
Proof. reflexivity. Qed.

(* before fix ff6cf28 (a name could contain a quote) this was read as name Qa, value b  [F11c] *)
Example parse_doc_fixed_eq : parse (doc_render [IQuoted (L "a=b")]) = values [IQuoted (L "a=b")].
Proof. reflexivity. Qed.

(* V0 holds spaces, =, inner and leading quotes, back-ticks, backslashes, an empty quoted value, a word
   starting with = , a named word with = *)
Example V0_example :
  V0 [IWord (L "a"); IQuoted (L "a b = c"); INamed (L "X") (L "1=2"); INamedQ (L "Y") (L " p=q  r ");
      IQuoted (dq :: L "hi" ++ dq :: L " there"); IQuoted []; IWord (L "=x"); IQuoted (L "a=b");
      INamedQ (L "Z") (L "`date` \x"); IQuoted (L "say " ++ dq :: L "hi" ++ [dq]); IQuoted [dq]; IQuoted (L "=")] = true.
Proof. reflexivity. Qed.

Example V1_example :
  V1 [([], L "a"); (L "X", L "1=2"); ([], L "=x"); ([], L "a\b`c"); ([], L "a b"); (L "Y", L " p  q "); ([], []);
      (L "Z", dq :: L "hi" ++ [dq]); ([], L "x y=z"); ([], L "tail\")] = true.
Proof. reflexivity. Qed.

Example parse_doc_example :
  parse (doc_render [IQuoted (L "a b = c"); INamedQ (L "Y") (dq :: L "q" ++ dq :: L " r")]) =
  [([], L "a b = c"); (L "Y", dq :: L "q" ++ dq :: L " r")].
Proof. reflexivity. Qed.

(* the run-wide output map (node.go:134-146, graph.go:66-83) *)
Lemma la_eqb_refl a : la_eqb a a = true.
Proof. induction a as [|c a IH]; simpl; [reflexivity | now rewrite aeq_refl, IH]. Qed.

Lemma la_eqb_eq a b : la_eqb a b = true <-> a = b.
Proof.
  split; [|intros ->; apply la_eqb_refl].
  revert b; induction a as [|c a IH]; destruct b as [|d b]; simpl; try discriminate; [reflexivity|].
  intros H. apply andb_true_iff in H as [H1 H2]. apply aeq_eq in H1. subst d. f_equal. now apply IH.
Qed.

Lemma la_eqb_sym a b : la_eqb a b = la_eqb b a.
Proof. apply eq_true_iff_eq. rewrite !la_eqb_eq. now split. Qed.

Lemma oget_ostore k k2 v m : oget k (ostore k2 v m) = if la_eqb k k2 then Some v else oget k m.
Proof.
  induction m as [|[k' v'] m IH]; simpl; [reflexivity|].
  destruct (la_eqb k2 k') eqn:E; simpl.
  - apply la_eqb_eq in E. subst k'. now destruct (la_eqb k k2).
  - rewrite IH. destruct (la_eqb k k') eqn:E1; [|reflexivity]. apply la_eqb_eq in E1. subst k'. now rewrite la_eqb_sym, E.
Qed.

Lemma oflow_app m a b : oflow m (a ++ b) = oflow m a ++ oflow (ofinal m a) b.
Proof.
  revert m; induction a as [|e a IH]; intros m; [reflexivity|].
  destruct e; simpl; [apply IH | now rewrite IH].
Qed.
Lemma ofinal_app m a b : ofinal m (a ++ b) = ofinal (ofinal m a) b.
Proof. revert m; induction a as [|e a IH]; intros m; [reflexivity|]. destruct e; simpl; apply IH. Qed.

(* no later attempt of a step with the same output name in between *)
Definition no_writer (n : la) (evs : list oevent) : Prop :=
  forall n' c', In (OEnd n' c') evs -> la_eqb n n' = false.

Lemma oget_ofinal_keep n m evs : no_writer n evs -> oget n (ofinal m evs) = oget n m.
Proof.
  revert m; induction evs as [|e evs IH]; intros m H; [reflexivity|].
  assert (H' : no_writer n evs) by (intros ? ? Hin; apply (H n' c'); now right).
  destruct e as [n' c'|i]; simpl.
  - rewrite (IH _ H'), oget_ostore, (H n' c'); [reflexivity | now left].
  - exact (IH _ H').
Qed.

Lemma value_of_entry n c m : oget n m = Some (entry n c) -> value_of n m = Some (trim_space c).
Proof.
  intros H. unfold value_of. rewrite H. unfold entry. f_equal.
  replace (S (List.length n)) with (List.length (n ++ [eqc])) by (rewrite app_length; simpl; lia).
  change (n ++ eqc :: trim_space c) with (n ++ [eqc] ++ trim_space c). rewrite app_assoc.
  now rewrite skipn_app, skipn_all, Nat.sub_diag.
Qed.

(* the map at the end of the run (what handlers get, and what the status file records for a retry) *)
Theorem output_final : forall m0 pre n c mid, no_writer n mid ->
  value_of n (ofinal m0 (pre ++ OEnd n c :: mid)) = Some (trim_space c).
Proof.
  intros. apply value_of_entry. rewrite ofinal_app. simpl. rewrite (oget_ofinal_keep n _ mid H).
  now rewrite oget_ostore, la_eqb_refl.
Qed.

(* maps built by Store have one entry per name; re-installing such a map for a retry gives it back *)
Fixpoint uniq (m : omap) : Prop := match m with [] => True | (k, _) :: r => oget k r = None /\ uniq r end.

Lemma oget_app k a b : oget k (a ++ b) = match oget k a with Some x => Some x | None => oget k b end.
Proof. induction a as [|[k' v'] a IH]; simpl; [reflexivity|]. now destruct (la_eqb k k'). Qed.

Lemma uniq_ostore k v m : uniq m -> uniq (ostore k v m).
Proof.
  induction m as [|[k' v'] m IH]; simpl; intros H; [now split|].
  destruct H as [H1 H2]. destruct (la_eqb k k') eqn:E; simpl.
  - apply la_eqb_eq in E. subst k'. now split.
  - split; [|now apply IH]. now rewrite oget_ostore, la_eqb_sym, E.
Qed.

Lemma uniq_ofinal m evs : uniq m -> uniq (ofinal m evs).
Proof.
  revert m; induction evs as [|e evs IH]; intros m H; [exact H|].
  destruct e; simpl; apply IH; [now apply uniq_ostore | exact H].
Qed.

Lemma ostore_fresh k v m : oget k m = None -> ostore k v m = m ++ [(k, v)].
Proof.
  induction m as [|[k' v'] m IH]; simpl; intros H; [reflexivity|].
  destruct (la_eqb k k'); [discriminate|]. now rewrite IH.
Qed.

(* on a map with one entry per name every ostore of the fold meets a fresh key and so appends (ostore_fresh) *)
Lemma reinstall_from acc m : uniq (acc ++ m) ->
  fold_left (fun a kv => ostore (fst kv) (snd kv) a) m acc = acc ++ m.
Proof.
  revert acc; induction m as [|[k v] m IH]; intros acc H; simpl; [now rewrite app_nil_r|].
  assert (Hk : oget k acc = None).
  { clear IH. induction acc as [|[k' v'] acc IHa]; [reflexivity|].
    simpl in H. destruct H as [H1 H2]. simpl. rewrite (IHa H2).
    rewrite oget_app in H1. destruct (oget k' acc); [discriminate|]. simpl in H1.
    rewrite la_eqb_sym. now destruct (la_eqb k' k). }
  rewrite (ostore_fresh k v acc Hk). rewrite IH; rewrite <- app_assoc; [reflexivity | exact H].
Qed.

Theorem reinstall_id m : uniq m -> reinstall m = m.
Proof. intros H. unfold reinstall. now rewrite (reinstall_from [] m H). Qed.

(* TrimSpace: some values of the model's trim (the white-space set is compared with the Go library on every run) *)
Example trim_examples :
  trim_space (L "  a b
") = L "a b" /\ trim_space [ascii_of_nat 194; ascii_of_nat 160; ascii_of_nat 120; ascii_of_nat 226; ascii_of_nat 128; ascii_of_nat 131] = [ascii_of_nat 120]
  /\ trim_space [ascii_of_nat 120; ascii_of_nat 226; ascii_of_nat 128; ascii_of_nat 139] = [ascii_of_nat 120; ascii_of_nat 226; ascii_of_nat 128; ascii_of_nat 139].
Proof. repeat split; reflexivity. Qed.

Example output_flow_example :
  oflow [] [OEnd (L "OUT") (L " x y
"); OStart 1; OEnd (L "B") (L "2"); OStart 2] =
  [(1, [(L "OUT", L "OUT=x y")]); (2, [(L "OUT", L "OUT=x y"); (L "B", L "B=2")])].
Proof. reflexivity. Qed.
