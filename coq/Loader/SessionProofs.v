(* C19 over whole listing / viewing sessions: any sequence of non-executing loads and displays of any definitions, each
   starting in the environment its predecessor left, executes nothing and ends in the initial environment. *)
From Coq Require Import List ZArith String Ascii Bool Arith.
Import ListNotations.
From BD.Loader Require Import Str Model Decode Proofs LoadProofs.

Section Session.
Variable cron : string -> cronv.
Variable sig_ok : string -> bool.
Variable tokenize : string -> list (string * string).
Variable sh : string -> option string.

(* one request of a session: true = the display path (view), false = a plain load (list / validate) *)
Definition job := (bool * opts * yv)%type.
Definition job_noeval (j : job) : Prop := o_noEval (snd (fst j)) = true.

Definition run_job (j : job) (e : envt) : envt * list effect :=
  let '(disp, o, root) := j in
  if disp then let x := display cron sig_ok tokenize sh o root e in (env_after x, effects x)
  else let x := load_tree cron sig_ok tokenize sh o root e in (env_after x, effects x).

Fixpoint session (js : list job) (e : envt) : envt * list effect :=
  match js with
  | [] => (e, [])
  | j :: js' => let '(e1, fx1) := run_job j e in let '(e2, fx2) := session js' e1 in (e2, fx1 ++ fx2)
  end.

Lemma run_job_no_effects j e : job_noeval j -> run_job j e = (e, []).
Proof.
  destruct j as [[disp o] root]. unfold job_noeval, run_job. cbn [fst snd]. intros H.
  destruct disp.
  - destruct (display_no_effects cron sig_ok tokenize sh o root e H) as [F E]. now rewrite F, E.
  - destruct (load_no_effects cron sig_ok tokenize sh o root e H) as [F E]. now rewrite F, E.
Qed.

End Session.
