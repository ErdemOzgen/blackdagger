(* The decode stage (yaml.v2 + mapstructure typing rules as re-stated in Decode.v, plus the two checks the
   loader adds since fixes e67ca4a and c021988): it never panics, and every definition it lets through is
   free of null elements - the premise of Proofs.build_no_panic.
   (Before fix e67ca4a a non-string key of a mapping decoded into a nested struct was a Panic of `decode`.) *)
From Coq Require Import List ZArith String Ascii Bool Arith.
Import ListNotations.
From BD.Loader Require Import Str Model Decode Proofs.
Open Scope string_scope.
Open Scope list_scope.

(* Nothing in Decode.v produces Panic: the combinators pass on what their arguments give, and every struct decoder
   is dec_struct over rpair / rmap of field decoders.  The hints below say so once; `auto with np` then follows the
   shape of each decoder (its depth is the number of fields). *)
Lemma rmap_np : forall A B (f : A -> B) r, r <> Panic -> rmap f r <> Panic.
Proof. intros A B f [| |a] H; simpl; congruence. Qed.
Lemma rpair_np : forall A B (a : res A) (b : res B), a <> Panic -> b <> Panic -> rpair a b <> Panic.
Proof. intros A B [| |x] [| |y] Ha Hb; simpl; congruence. Qed.
#[local] Hint Resolve rmap_np rpair_np : np.

Lemma dec_string_np : forall v, dec_string v <> Panic. Proof. destruct v; discriminate. Qed.
Lemma dec_int_np : forall v, dec_int v <> Panic. Proof. destruct v; discriminate. Qed.
Lemma dec_bool_np : forall v, dec_bool v <> Panic. Proof. destruct v; discriminate. Qed.

Lemma dec_list_np : forall A (f : yv -> res A) v, (forall x, f x <> Panic) -> dec_list f v <> Panic.
Proof. intros A f [] Hf; simpl; auto with np. induction l; simpl; auto with np. Qed.
Lemma dec_ptr_np : forall A (f : yv -> res A) v, (forall x, f x <> Panic) -> dec_ptr f v <> Panic.
Proof. intros A f [] Hf; simpl; auto with np. Qed.

Lemma keys_check_np : forall nested fields m, keys_check nested fields m <> Panic.
Proof. intros. unfold keys_check. destruct (_ && negb _); [discriminate|]. destruct (_ && _); discriminate. Qed.

Lemma dec_struct_np : forall A nested fields (zero : A) body v,
  (forall m, body m <> Panic) -> dec_struct nested fields zero body v <> Panic.
Proof. intros A nested fields zero body [] Hb; simpl; auto using keys_check_np with np. Qed.

Lemma dec_args_np : forall v, dec_args v <> Panic.
Proof. intros []; simpl; auto with np. induction m as [|[[] v] m IH]; simpl; auto with np. Qed.
#[local] Hint Resolve dec_string_np dec_int_np dec_bool_np dec_list_np dec_ptr_np dec_struct_np dec_args_np : np.

Lemma dec_conditionDef_np : forall v, dec_conditionDef v <> Panic.
Proof. unfold dec_conditionDef. auto 8 with np. Qed.
Lemma dec_stepDef_np : forall v, dec_stepDef v <> Panic.
Proof.
  unfold dec_stepDef, dec_continueOn, dec_retryPolicy, dec_repeatPolicy, dec_callFuncDef.
  auto 30 using dec_conditionDef_np with np.
Qed.
Lemma dec_definition_np : forall v, dec_definition v <> Panic.
Proof.
  unfold dec_definition, dec_handlerOn, dec_funcDef, dec_smtp, dec_mailOn, dec_mailConfig.
  auto 30 using dec_conditionDef_np, dec_stepDef_np with np.
Qed.

Theorem decode_no_panic : forall root, decode root <> Panic.
Proof.
  intros root. unfold decode. destruct (negb (yaml_ok root)); [discriminate|].
  pose proof (dec_definition_np root) as Hd.
  destruct root; try discriminate; (destruct (dec_definition _); [congruence | discriminate | destruct (no_nil _); discriminate]).
Qed.

(* every definition that leaves the decode stage is free of null elements (assertNoNullElements, fix c021988) *)
Theorem decode_no_nil : forall root d, decode root = Ok d -> no_nil d = true.
Proof.
  intros root d. unfold decode. destruct (negb (yaml_ok root)); [discriminate|].
  destruct root; try discriminate;
    (destruct (dec_definition _) as [| |d0]; try discriminate;
     destruct (no_nil d0) eqn:E; [|discriminate]; intros H; inversion H; subst; exact E).
Qed.
