(* Theorems about the Loader model (C13, C19), for every decoded definition, option value, initial environment and
   value of the library parameters.  The model follows the REPAIRED code (/repo fix commits c2912bd, 519d0a6, e67ca4a,
   c021988, 089471d, aac42fa, 667fb54, 4348d0d, a55d876): no premise restricts the definitions.  Two hypotheses remain:
   the cron library panics only on a bare TZ= / CRON_TZ= prefix (cron_panic_tz; discharged for the Cron model in
   CronPlug.v); a parameter value matched by the tokenizer's quoted alternative holds its two quotes (tok_quoted). *)
From Coq Require Import List ZArith String Ascii Bool Arith Lia.
Import ListNotations.
From BD.Loader Require Import Str Model.
Open Scope string_scope.
Open Scope list_scope.

Definition NP {A} (m : M A) : Prop := forall e, outcome (m e) <> Panic.
Definition quiet {A} (e : envt) (m : M A) : Prop := effects (m e) = [] /\ env_after (m e) = e.

(* Where the model reads the environment it is written `fun e => (...) e`: there `intros e; cbv beta` (for NP) and
   `red; cbv beta` (for quiet) expose the bind the lemmas below speak of. *)
Lemma NP_ret : forall A (a : A), NP (ret a).
Proof. intros A a e. discriminate. Qed.
Lemma NP_lift : forall A (r : res A), r <> Panic -> NP (lift r).
Proof. intros A r H e. exact H. Qed.
Lemma NP_bind : forall A B (m : M A) (f : A -> M B), NP m -> (forall a, NP (f a)) -> NP (bind m f).
Proof.
  intros A B m f Hm Hf e. unfold bind. specialize (Hm e). destruct (m e) as [[r e1] l1].
  destruct r; unfold outcome in *; simpl in *; try congruence.
  specialize (Hf a e1). destruct (f a e1) as [[r2 e2] l2]. exact Hf.
Qed.
Lemma NP_try : forall A (m : M A), NP m -> NP (try_ m).
Proof.
  intros A m Hm e. unfold try_. specialize (Hm e). destruct (m e) as [[r e1] l1].
  destruct r; unfold outcome in *; simpl in *; congruence.
Qed.

Lemma quiet_ret : forall A e (a : A), quiet e (ret a).
Proof. intros; split; reflexivity. Qed.
Lemma quiet_lift : forall A e (r : res A), quiet e (lift r).
Proof. intros; split; reflexivity. Qed.
Lemma quiet_bind : forall A B e (m : M A) (f : A -> M B), quiet e m -> (forall a, quiet e (f a)) -> quiet e (bind m f).
Proof.
  intros A B e m f [Hm1 Hm2] Hf. unfold quiet, bind in *. destruct (m e) as [[r e1] l1].
  unfold effects, env_after in *; simpl in *. subst.
  destruct r; simpl; auto.
  destruct (Hf a) as [H1 H2]. destruct (f a e) as [[r2 e2] l2]. simpl in *. subst. auto.
Qed.
Lemma quiet_try : forall A e (m : M A), quiet e m -> quiet e (try_ m).
Proof.
  intros A e m [H1 H2]. unfold quiet, try_ in *. destruct (m e) as [[r e1] l1].
  unfold effects, env_after in *; simpl in *. destruct r; simpl; auto.
Qed.

Lemma effects_lift : forall A (r : res A) e, effects (lift r e) = [].
Proof. reflexivity. Qed.
Lemma env_after_lift : forall A (r : res A) e, env_after (lift r e) = e.
Proof. reflexivity. Qed.

Lemma rbind_np : forall A B (r : res A) (f : A -> res B), r <> Panic -> (forall a, f a <> Panic) -> rbind r f <> Panic.
Proof. intros A B r f H Hf. destruct r; simpl; auto; congruence. Qed.
Lemma rbind_ok : forall A B (r : res A) (f : A -> res B) b, rbind r f = Ok b -> exists a, r = Ok a /\ f a = Ok b.
Proof. intros A B [| |a] f b H; try discriminate. eauto. Qed.

(* One stage of `build`: callBuilderFunc keeps going after an error, so what follows a stage runs on its result
   (None = its error was collected) in the environment the stage left, and the effects add up. *)
Lemma bind_try_ok : forall A B (m : M A) (f : option A -> M B) e b,
  outcome (bind (try_ m) f e) = Ok b ->
  exists r, outcome (f r (env_after (m e))) = Ok b /\
            outcome (m e) = match r with Some a => Ok a | None => Err end.
Proof.
  intros A B m f e b. unfold bind, try_, outcome, env_after. destruct (m e) as [[[| |a] e1] l1]; simpl; [discriminate| |].
  - exists None. destruct (f None e1) as [[? ?] ?]. auto.
  - exists (Some a). destruct (f (Some a) e1) as [[? ?] ?]. auto.
Qed.
Lemma bind_try_effects : forall A B (m : M A) (f : option A -> M B) e,
  outcome (bind (try_ m) f e) <> Panic ->
  exists r, outcome (f r (env_after (m e))) <> Panic /\
            effects (bind (try_ m) f e) = effects (m e) ++ effects (f r (env_after (m e))).
Proof.
  intros A B m f e. unfold bind, try_, outcome, env_after, effects. destruct (m e) as [[[| |a] e1] l1]; simpl; [congruence| |].
  - exists None. destruct (f None e1) as [[? ?] ?]. auto.
  - exists (Some a). destruct (f (Some a) e1) as [[? ?] ?]. auto.
Qed.

Lemma in_somes : forall A (x : A) l,
  In x (flat_map (fun o => match o with Some s => [s] | None => [] end) l) <-> In (Some x) l.
Proof.
  intros A x l. rewrite in_flat_map. split.
  - intros ([y|] & H & Hy); [destruct Hy as [<-|[]]; exact H | destruct Hy].
  - intros H. exists (Some x). simpl; auto.
Qed.

(* `build` ends by looking at the collected results one after the other - all present: the DAG; one missing: an
   error.  `collected` takes these cases in that order (one goal per result, not one per combination). *)
Ltac collected := repeat match goal with |- context [match ?r with Some _ => _ | None => _ end] => destruct r end.

(* never-Panic facts compose by these; a function whose body holds no Panic is then closed by `auto with np` *)
Create HintDb np discriminated.
#[export] Hint Resolve NP_ret NP_lift NP_bind NP_try rbind_np : np.
#[export] Hint Extern 3 (_ <> Panic) => discriminate : np.

Section Proofs.
Variable cron : string -> cronv.
Variable sig_ok : string -> bool.
Variable re_ok : string -> bool.
Variable tokenize : string -> list (string * string).
Variable sh : string -> option string.
Variable cond_met : string -> string -> bool.
(* the only input on which cronParser.Parse panics (robfig/cron v3.0.1 parser.go:97-99) *)
Hypothesis cron_panic_tz : forall s, cron s = CronPanic -> tz_only s = true.
(* the quoted alternative of the parameter regular expression ("(?:\\"|[^"])*") matches at least its two quotes *)
Definition quoted_wf (v : string) : Prop := prefixb (str1 c_dquote) v = true -> Nat.ltb (slen v) 2 = false.
Hypothesis tok_quoted : forall s n v, In (n, v) (tokenize s) -> quoted_wf v.

Lemma exec_cmd_np : forall c, NP (exec_cmd sh c).
Proof. intros c e. discriminate. Qed.
Lemma setenv_np : forall k v, NP (setenv k v).
Proof. intros k v e. unfold setenv, outcome. destruct (setenv_valid k v); discriminate. Qed.
Hint Resolve exec_cmd_np setenv_np : np.

Lemma substituteCommands_np : forall s, NP (substituteCommands sh s).
Proof.
  intros s. unfold substituteCommands. generalize s at 2. induction (ticker_matches s) as [|m ms IH]; intros cur; simpl; auto with np.
  apply NP_bind; [apply exec_cmd_np|]. intros [o|]; auto with np.
Qed.
Hint Resolve substituteCommands_np : np.

Lemma parseKeyValue_np : forall m, parseKeyValue m <> Panic.
Proof. induction m as [|[k v] m IH]; simpl; [|destruct k]; auto with np. Qed.
Lemma env_pairs_np : forall v, env_pairs v <> Panic.
Proof.
  destruct v; simpl; auto using parseKeyValue_np with np.
  induction l as [|x l IH]; simpl; [|destruct x]; auto using parseKeyValue_np with np.
Qed.

Lemma buildEnvs_np : forall d o base, NP (buildEnvs sh d o base).
Proof.
  intros. unfold buildEnvs, loadVariables. apply NP_bind; [|auto with np].
  apply NP_bind; [apply NP_lift, env_pairs_np|]. intros pairs. generalize (@nil (string * string)).
  induction pairs as [|[k raw] r IH]; intros vars; simpl; auto with np.
  destruct (o_noEval o); [apply IH|]. intros e; cbv beta. apply NP_bind; auto with np.
Qed.

Lemma param_subst_loop_np : forall ms cur failed, NP (param_subst_loop sh ms cur failed).
Proof.
  induction ms as [|m ms IH]; intros cur failed; simpl; auto with np.
  intros e; cbv beta. apply NP_bind; [apply exec_cmd_np|]. intros [o|]; apply IH.
Qed.
(* the one Panic of the parameter path: value[1:len-1] on a one-character quoted value *)
Lemma parseParamValue_one_np : forall eval nv, quoted_wf (snd nv) -> NP (parseParamValue_one sh eval nv).
Proof.
  intros eval [name value] Hq. unfold parseParamValue_one. unfold quoted_wf in Hq. cbn [snd] in Hq.
  assert (Hs : forall v1, NP (vf <- param_subst_loop sh (backtick_matches v1) v1 false ;; if snd vf then lift Err else ret (name, fst vf))).
  { intros v1. apply NP_bind; [apply param_subst_loop_np|]. intros [v f]; destruct f; simpl; auto with np. }
  destruct (prefixb (str1 c_dquote) value); cbn [andb orb].
  - rewrite (Hq eq_refl). destruct eval; auto with np.
  - destruct (prefixb "`" value), eval; auto with np.
Qed.
Lemma parseParams_loop_np : forall eval noEval ps i r envs, NP (parseParams_loop eval noEval i ps r envs).
Proof.
  intros eval noEval. induction ps as [|[name v0] ps IH]; intros i r envs; simpl; auto with np.
  intros e; cbv beta. apply NP_bind; [destruct noEval; auto with np|].
  intros _. destruct (negb noEval && negb (is_empty name)); auto with np.
Qed.
Lemma parseParamValue_np : forall eval toks, (forall nv, In nv toks -> quoted_wf (snd nv)) -> NP (parseParamValue sh eval toks).
Proof.
  intros eval. induction toks as [|t r IH]; simpl; intros H; [apply NP_ret|].
  apply NP_bind; [apply parseParamValue_one_np, H, in_eq|]. intros p.
  apply NP_bind; [apply IH; intros nv Hnv; apply H, in_cons, Hnv | auto with np].
Qed.
Lemma buildParams_np : forall d o, NP (buildParams tokenize sh d o).
Proof.
  intros. unfold buildParams, parseParams. apply NP_bind; [|auto with np].
  apply NP_bind; [|intros; apply parseParams_loop_np].
  apply parseParamValue_np. intros [n v] Hin. exact (tok_quoted _ _ _ Hin).
Qed.

Lemma buildLogDir_np : forall d o, NP (buildLogDir sh d o).
Proof. intros d o e. unfold buildLogDir. destruct (o_noEval o); [discriminate | apply substituteCommands_np]. Qed.
Lemma buildSMTPConfig_np : forall d, NP (buildSMTPConfig d).
Proof. intros d e. discriminate. Qed.

Definition cron_ok (s : string) : bool := match parseCron cron s with CronOk => true | _ => false end.

Lemma parseCron_np : forall s, parseCron cron s <> CronPanic.
Proof.
  intros s H. unfold parseCron in H. destruct (tz_only s) eqn:E; [discriminate|].
  rewrite (cron_panic_tz s H) in E. discriminate.
Qed.

Lemma parseSchedules_np : forall l, parseSchedules cron l <> Panic.
Proof.
  induction l as [|v r IH]; simpl; auto with np.
  pose proof (parseCron_np v). destruct (parseCron cron v); auto with np.
Qed.
Lemma parseSchedules_ok : forall l r, parseSchedules cron l = Ok r -> r = l /\ forallb cron_ok l = true.
Proof.
  induction l as [|v l IH]; simpl; intros r H.
  - inversion H; auto.
  - unfold cron_ok at 1. destruct (parseCron cron v); try discriminate.
    apply rbind_ok in H as (x & Hx & H). inversion H; subst. destruct (IH x Hx) as [-> H2]. auto.
Qed.

Lemma sched_values_loop_np : forall k vals acc, sched_values_loop cron k vals acc <> Panic.
Proof.
  intros k. induction vals as [|v r IH]; intros acc; simpl; auto with np.
  pose proof (parseCron_np v). destruct (parseCron cron v); auto with np.
  destruct acc as [[a b] c]. destruct k; auto with np.
Qed.

Lemma parseScheduleMap_np : forall m acc, parseScheduleMap cron m acc <> Panic.
Proof.
  induction m as [|[k v] m IH]; intros acc; simpl; auto with np.
  destruct k; auto with np.
  destruct v; try destruct (strings_of l); try discriminate;
    destruct (skey_of s); auto using sched_values_loop_np with np.
Qed.

Lemma buildSchedule_np : forall d, buildSchedule cron d <> Panic.
Proof.
  intros d. unfold buildSchedule. apply rbind_np.
  - destruct (d_schedule d); auto using parseScheduleMap_np with np. destruct (strings_of l); discriminate.
  - intros [[a b] c]. repeat (apply rbind_np; [apply parseSchedules_np | intros ?]). discriminate.
Qed.

Lemma buildSchedule_ok : forall d a b c, buildSchedule cron d = Ok (a, b, c) ->
  forallb cron_ok a = true /\ forallb cron_ok b = true /\ forallb cron_ok c = true.
Proof.
  intros d a b c H. unfold buildSchedule in H.
  apply rbind_ok in H as ([[x y] z] & _ & H).
  apply rbind_ok in H as (x' & Hx & H). apply rbind_ok in H as (y' & Hy & H). apply rbind_ok in H as (z' & Hz & H).
  inversion H; subst.
  destruct (parseSchedules_ok _ _ Hx) as [-> ?], (parseSchedules_ok _ _ Hy) as [-> ?], (parseSchedules_ok _ _ Hz) as [-> ?].
  auto.
Qed.

(* the Panics of steps, handlers and functions are dereferences of a nil list element, excluded by no_nil *)
Lemma find_func_np : forall fns name, forallb is_some fns = true -> find_func fns name <> Panic.
Proof.
  induction fns as [|[f|] fns IH]; simpl; intros name H; auto with np.
  destruct (String.eqb (f_name f) name); auto with np.
Qed.
Lemma buildConditions_np : forall cs, forallb is_some cs = true -> buildConditions cs <> Panic.
Proof. induction cs as [|[c|] cs IH]; simpl; intros H; auto with np. Qed.
Lemma assertFunctions_np : forall fns, forallb is_some fns = true -> assertFunctions fns <> Panic.
Proof.
  intros fns. unfold assertFunctions. generalize (@nil string).
  induction fns as [|[f|] fns IH]; simpl; intros seen H; auto with np.
  destruct (existsb _ seen); auto with np. destruct (list_eqb _ _ _); auto with np.
Qed.
Hint Resolve find_func_np buildConditions_np : np.

Lemma call_args_np : forall args, call_args args <> Panic.
Proof. induction args as [|[k v] args IH]; simpl; [|destruct v]; auto with np. Qed.
Lemma parseFuncCall_np : forall call fns, forallb is_some fns = true -> parseFuncCall call fns <> Panic.
Proof.
  intros [c|] fns H; simpl; [|discriminate].
  apply rbind_np; [apply call_args_np|]. intros passed. apply rbind_np; [apply find_func_np, H | discriminate].
Qed.
Lemma parseCommand_np : forall c cur, parseCommand c cur <> Panic.
Proof.
  intros c [[cwa cmd] args]. destruct c; simpl; auto with np.
  - destruct (is_empty s); [discriminate|]. destruct (split_command s); discriminate.
  - destruct (command_list_loop l cmd args); discriminate.
Qed.
Lemma config_entries_np : forall m, config_entries m <> Panic.
Proof. induction m as [|[k v] m IH]; simpl; [|destruct k]; auto with np. Qed.
Lemma executor_entries_np : forall m typ cfg, executor_entries m typ cfg <> Panic.
Proof.
  induction m as [|[k v] m IH]; intros typ cfg; simpl; [|destruct k]; auto with np.
  destruct (String.eqb s "type"); [destruct v; auto with np|].
  destruct (String.eqb s "config"); [destruct v|]; auto using config_entries_np with np.
Qed.
Lemma parseExecutor_np : forall v, parseExecutor v <> Panic.
Proof.
  destruct v; simpl; auto with np.
  apply rbind_np; [apply executor_entries_np|]. intros tc. destruct (forallb _ _); discriminate.
Qed.
Lemma parseSignal_np : forall s, parseSignal sig_ok s <> Panic.
Proof. intros [s|]; simpl; [destruct (sig_ok s)|]; discriminate. Qed.

Lemma assertStepDef_np : forall def fns, forallb is_some fns = true -> assertStepDef (Some def) fns <> Panic.
Proof.
  intros def fns H. unfold assertStepDef.
  destruct (is_empty (sd_name def)); [discriminate|].
  destruct (_ && _ && _ && _); [discriminate|].
  destruct (sd_call def) as [call|]; [|discriminate].
  apply rbind_np; [apply find_func_np, H|]. intros of. cbv zeta.
  destruct (is_empty (f_name _)); [discriminate|]. destruct (negb (Nat.eqb _ _)); [discriminate|].
  destruct (forallb (has_arg _) _); discriminate.
Qed.

Lemma buildStep_np : forall vars def fns,
  forallb is_some fns = true -> conds_ok (sd_preconditions def) = true ->
  buildStep sig_ok vars (Some def) fns <> Panic.
Proof.
  intros vars def fns Hf Hc. unfold buildStep.
  apply rbind_np; [apply assertStepDef_np, Hf|]. intros _.
  apply rbind_np; [apply buildConditions_np, Hc|]. intros conds.
  apply rbind_np; [apply parseFuncCall_np, Hf|]. intros fc.
  apply rbind_np; [apply parseCommand_np|]. intros [[cwa cmd] args].
  apply rbind_np; [apply parseExecutor_np|]. intros ex.
  apply rbind_np; [apply parseSignal_np|]. intros sg. cbv zeta. destruct (step_executable _); discriminate.
Qed.

Lemma buildSteps_np : forall vars sds fns,
  forallb is_some fns = true -> forallb ostep_ok sds = true -> buildSteps sig_ok vars sds fns <> Panic.
Proof.
  intros vars sds fns Hf. induction sds as [|[sd|] sds IH]; simpl; intros H; try discriminate.
  apply andb_true_iff in H as [H1 H2]. auto using buildStep_np with np.
Qed.

Lemma buildHandler_np : forall vars n h fns,
  forallb is_some fns = true -> handler_ok h = true -> buildHandler sig_ok vars n h fns <> Panic.
Proof. intros vars n [sd|] fns Hf Hh; simpl; auto using buildStep_np with np. Qed.

Lemma buildHandlers_np : forall vars h fns,
  forallb is_some fns = true -> handlers_ok h = true -> buildHandlers sig_ok vars h fns <> Panic.
Proof.
  intros vars h fns Hf H. unfold handlers_ok in H. rewrite !andb_true_iff in H. destruct H as [[[? ?] ?] ?].
  unfold buildHandlers. repeat (apply rbind_np; [apply buildHandler_np; assumption | intros ?]). discriminate.
Qed.

(* C13: the builder never panics on a definition without null elements - which is every definition the decode
   stage lets through (DecodeProofs.decode_no_nil) *)
Theorem build_no_panic : forall (o : opts) (d : definition) (base : list string),
  no_nil d = true ->
  forall e, outcome (build cron sig_ok tokenize sh o d base e) <> Panic.
Proof.
  intros o d base Hn. unfold no_nil in Hn. rewrite !andb_true_iff in Hn. destruct Hn as [[[Hst Hf] Hp] Hh].
  change (NP (build cron sig_ok tokenize sh o d base)). unfold build.
  apply NP_bind; [apply NP_try, buildEnvs_np|]. intros r_env.
  apply NP_bind; [apply NP_try, NP_lift, buildSchedule_np|]. intros r_sch.
  apply NP_bind; [apply NP_try, buildParams_np|]. intros r_par.
  destruct (o_metadataOnly o); [collected; auto with np|].
  apply NP_bind; [apply NP_try, NP_lift, buildSteps_np; assumption|]. intros r_steps.
  apply NP_bind; [apply NP_try, buildLogDir_np|]. intros r_log.
  apply NP_bind; [apply NP_try, NP_lift, buildHandlers_np; assumption|]. intros r_hs.
  apply NP_bind; [apply NP_try, buildSMTPConfig_np|]. intros r_smtp.
  apply NP_bind; [apply NP_try, NP_lift, buildConditions_np, Hp|]. intros r_pre.
  apply NP_bind; [apply NP_try, NP_lift, assertFunctions_np, Hf|]. intros r_fn.
  collected; auto with np.
Qed.

Lemma build_ok_inv : forall o d base e g,
  outcome (build cron sig_ok tokenize sh o d base e) = Ok g ->
  exists env sch par,
    buildSchedule cron d = Ok sch /\
    (if o_metadataOnly o then g = mk_dag d env sch par [] "" (None, None, None, None) None false []
     else exists vars steps logDir hs smtp pre,
        buildSteps sig_ok vars (d_steps d) (d_functions d) = Ok steps /\
        buildHandlers sig_ok vars (d_handlerOn d) (d_functions d) = Ok hs /\
        g = mk_dag d env sch par steps logDir hs (Some smtp) true pre).
Proof.
  intros o d base e g H. unfold build in H.
  apply bind_try_ok in H as (r_env & H & _).
  apply bind_try_ok in H as (r_sch & H & Hsch).
  apply bind_try_ok in H as (r_par & H & _).
  destruct (o_metadataOnly o).
  - revert H Hsch. collected; try discriminate. intros [= <-] Hsch. eauto.
  - apply bind_try_ok in H as (r_st & H & Hst).
    apply bind_try_ok in H as (r_log & H & _).
    apply bind_try_ok in H as (r_hs & H & Hhs).
    apply bind_try_ok in H as (r_smtp & H & _).
    apply bind_try_ok in H as (r_pre & H & _).
    apply bind_try_ok in H as (r_fn & H & _).
    revert H Hsch Hst Hhs. collected; try discriminate. intros [= <-] Hsch Hst Hhs.
    do 3 eexists. split; [exact Hsch|]. do 6 eexists. split; [exact Hst|]. split; [exact Hhs | reflexivity].
Qed.

Lemma assertStepDef_name : forall def fns, assertStepDef (Some def) fns = Ok tt -> is_empty (sd_name def) = false.
Proof. intros def fns. unfold assertStepDef. destruct (is_empty (sd_name def)); [discriminate | reflexivity]. Qed.

Lemma parseSignal_ok : forall s sg, parseSignal sig_ok s = Ok sg -> sg = "" \/ sig_ok sg = true.
Proof.
  intros [s|] sg; simpl; [|intros H; inversion H; auto].
  destruct (sig_ok s) eqn:E; intros H; inversion H; subst; auto.
Qed.

Definition step_wf (s : step) : Prop :=
  is_empty (st_name s) = false /\ (st_signalOnStop s = "" \/ sig_ok (st_signalOnStop s) = true).

(* induction over untyped trees (nested through lists and lists of pairs) *)
Section yv_induction.
  Variable P : yv -> Prop.
  Hypothesis Hnull : P VNull.
  Hypothesis Hbool : forall b, P (VBool b).
  Hypothesis Hint : forall z, P (VInt z).
  Hypothesis Hfloat : forall k r t, P (VFloat k r t).
  Hypothesis Hstr : forall s, P (VStr s).
  Hypothesis Hlist : forall l, Forall P l -> P (VList l).
  Hypothesis Hmap : forall m, Forall (fun kv => P (fst kv) /\ P (snd kv)) m -> P (VMap m).
  Fixpoint yv_ind2 (v : yv) : P v :=
    match v with
    | VNull => Hnull
    | VBool b => Hbool b
    | VInt z => Hint z
    | VFloat k r t => Hfloat k r t
    | VStr s => Hstr s
    | VList l => Hlist l ((fix go (l : list yv) : Forall P l :=
                             match l with
                             | [] => Forall_nil P
                             | x :: r => Forall_cons x (yv_ind2 x) (go r)
                             end) l)
    | VMap m => Hmap m ((fix go (m : list (yv * yv)) : Forall (fun kv => P (fst kv) /\ P (snd kv)) m :=
                           match m with
                           | [] => Forall_nil _
                           | kv :: r => Forall_cons kv (conj (yv_ind2 (fst kv)) (yv_ind2 (snd kv))) (go r)
                           end) m)
    end.
End yv_induction.

(* what convertValue lets through, json.Marshal encodes *)
Lemma conv_ok_json : forall v, conv_ok v = true -> json_conv v = true.
Proof.
  induction v using yv_ind2; simpl; auto; rewrite !forallb_forall, Forall_forall in *; intros Hc x Hx.
  - auto.
  - apply H; [exact Hx|]. specialize (Hc x Hx). apply andb_true_iff in Hc as [_ Hc]. exact Hc.
Qed.

Lemma parseExecutor_json : forall v ex, parseExecutor v = Ok ex -> forallb (fun kv => json_conv (snd kv)) (snd ex) = true.
Proof.
  intros v ex H. destruct v; simpl in H; try discriminate; try (inversion H; reflexivity).
  apply rbind_ok in H as (tc & _ & H). destruct (forallb _ (snd tc)) eqn:Ec in H; [|discriminate]. inversion H; subst.
  rewrite forallb_forall in *. intros kv Hkv. apply conv_ok_json, Ec, Hkv.
Qed.

Definition accepted_step (s : step) : Prop := step_wf s /\ step_executable s = true /\ step_json_ok s = true.

Lemma buildStep_ok : forall vars def fns s, buildStep sig_ok vars (Some def) fns = Ok s -> accepted_step s.
Proof.
  intros vars def fns s H. unfold buildStep in H.
  apply rbind_ok in H as ([] & Ha & H).
  apply rbind_ok in H as (conds & _ & H).
  apply rbind_ok in H as (fc & _ & H).
  apply rbind_ok in H as ([[cwa cmd] args] & _ & H).
  apply rbind_ok in H as (ex & Hex & H).
  apply rbind_ok in H as (sg & Hsg & H).
  (* fix aac42fa: the last test of buildStep *)
  destruct (step_executable _) eqn:Hexe in H; [|discriminate]. injection H as <-.
  split; [split|split]; [exact (assertStepDef_name _ _ Ha) | exact (parseSignal_ok _ _ Hsg) | exact Hexe | exact (parseExecutor_json _ _ Hex)].
Qed.

Lemma buildSteps_ok : forall vars sds fns steps,
  buildSteps sig_ok vars sds fns = Ok steps -> forall s, In s steps -> accepted_step s.
Proof.
  intros vars sds fns. induction sds as [|sd sds IH]; simpl; intros steps H s Hin.
  - inversion H; subst. destruct Hin.
  - apply rbind_ok in H as (s1 & H1 & H). apply rbind_ok in H as (rest & H2 & H). inversion H; subst.
    destruct Hin as [<-|Hin]; [|exact (IH rest H2 s Hin)].
    destruct sd as [def|]; [exact (buildStep_ok _ _ _ _ H1) | discriminate H1].
Qed.

Lemma buildHandler_ok : forall vars n h fns s, buildHandler sig_ok vars n h fns = Ok (Some s) -> accepted_step s.
Proof.
  intros vars n [sd|] fns s H; simpl in H; [|discriminate].
  apply rbind_ok in H as (s1 & H1 & H). inversion H; subst. exact (buildStep_ok _ _ _ _ H1).
Qed.

Lemma build_steps_accepted : forall o d base e g,
  outcome (build cron sig_ok tokenize sh o d base e) = Ok g -> forall s, In s (all_steps g) -> accepted_step s.
Proof.
  intros o d base e g H s Hin.
  destruct (build_ok_inv _ _ _ _ _ H) as (env & sch & par & _ & Hrest).
  destruct (o_metadataOnly o); [subst g; destruct Hin|].
  destruct Hrest as (vars & steps & logDir & [[[ex su] fa] ca] & smtp & pre & Hst & Hhs & ->).
  apply in_app_iff in Hin as [Hin|Hin]; [exact (buildSteps_ok _ _ _ _ Hst s Hin)|].
  apply in_somes in Hin. unfold buildHandlers in Hhs.
  apply rbind_ok in Hhs as (ex' & H1 & Hhs). apply rbind_ok in Hhs as (su' & H2 & Hhs).
  apply rbind_ok in Hhs as (fa' & H3 & Hhs). apply rbind_ok in Hhs as (ca' & H4 & Hhs). inversion Hhs; subst.
  destruct Hin as [E|[E|[E|[E|[]]]]]; cbn in E; subst; eapply buildHandler_ok; eassumption.
Qed.

Theorem build_wf : forall o d base e g,
  outcome (build cron sig_ok tokenize sh o d base e) = Ok g ->
  (forall s, In s (all_steps g) -> step_wf s) /\
  forallb cron_ok (g_schedule g) = true /\ forallb cron_ok (g_stopSchedule g) = true /\
  forallb cron_ok (g_restartSchedule g) = true.
Proof.
  intros o d base e g H. split; [intros s Hin; apply (build_steps_accepted _ _ _ _ _ H s Hin)|].
  destruct (build_ok_inv _ _ _ _ _ H) as (env & [[a b] c] & par & Hs & Hrest).
  apply buildSchedule_ok in Hs. destruct (o_metadataOnly o).
  - subst g. exact Hs.
  - destruct Hrest as (vars & steps & logDir & hs & smtp & pre & _ & _ & ->). exact Hs.
Qed.

Lemma json_ok_all_steps : forall g, (forall s, In s (all_steps g) -> step_json_ok s = true) -> json_ok g = true.
Proof.
  intros g H. unfold json_ok, all_steps in *.
  assert (H1 : forallb step_json_ok (g_steps g) = true).
  { apply forallb_forall. intros s Hs. apply H. apply in_app_iff; auto. }
  assert (H2 : forall o, In o [g_onExit g; g_onSuccess g; g_onFailure g; g_onCancel g] -> ostep_json_ok o = true).
  { intros [s|] Ho; simpl; [|reflexivity]. apply H. apply in_app_iff. right. apply in_somes, Ho. }
  rewrite H1. rewrite !H2; simpl; auto 6.
Qed.

(* C13: evaluating conditions - of an accepted DAG or any others - does not crash (before fix 089471d an `expected:`
   with the re: prefix whose pattern does not compile made evalCondition panic through a nil logger) *)
Theorem evalConditions_np : forall cs, NP (evalConditions re_ok sh cond_met cs).
Proof.
  induction cs as [|c cs IH]; simpl; auto with np.
  apply NP_bind; [|intros [|]; auto with np].
  intros e; cbv beta. apply NP_bind; auto with np. intros actual. destruct (_ && _); auto with np.
Qed.

(* C19: under noEval the builder has no effect and leaves the environment as it is, whatever the definition *)
Lemma buildEnvs_quiet : forall e d o base, o_noEval o = true -> quiet e (buildEnvs sh d o base).
Proof.
  intros e d o base Hn. unfold buildEnvs, loadVariables. rewrite Hn.
  apply quiet_bind; [|intros; apply quiet_ret].
  apply quiet_bind; [apply quiet_lift|]. intros pairs. generalize (@nil (string * string)).
  induction pairs as [|[k raw] r IH]; intros vars; simpl; [apply quiet_ret | apply IH].
Qed.

Lemma parseParamValue_quiet : forall e toks, quiet e (parseParamValue sh false toks).
Proof.
  intros e. induction toks as [|[name value] r IH]; simpl; [apply quiet_ret|].
  apply quiet_bind.
  - destruct (_ && _); [apply quiet_lift|]. destruct (_ || _); apply quiet_ret.
  - intros p. apply quiet_bind; [exact IH | intros; apply quiet_ret].
Qed.

(* fix a55d876: no positional parameter is exported under noEval *)
Lemma parseParams_loop_quiet : forall e eval ps i r envs, quiet e (parseParams_loop eval true i ps r envs).
Proof.
  intros e eval. induction ps as [|[name v0] ps IH]; intros i r envs; simpl; [apply quiet_ret|].
  red; cbv beta. apply quiet_bind; [apply quiet_ret|]. intros _. apply IH.
Qed.

Lemma buildParams_quiet : forall e d o, o_noEval o = true -> quiet e (buildParams tokenize sh d o).
Proof.
  intros e d o Hn. unfold buildParams, parseParams. rewrite Hn. simpl.
  apply quiet_bind; [|intros; apply quiet_ret].
  apply quiet_bind; [apply parseParamValue_quiet | intros; apply parseParams_loop_quiet].
Qed.

(* fix 4348d0d: no command substitution in logDir under noEval *)
Lemma buildLogDir_quiet : forall e d o, o_noEval o = true -> quiet e (buildLogDir sh d o).
Proof. intros e d o Hn. unfold quiet, buildLogDir. rewrite Hn. simpl. auto. Qed.

Lemma buildSMTPConfig_quiet : forall e d, quiet e (buildSMTPConfig d).
Proof. intros; split; reflexivity. Qed.

Theorem build_no_effects : forall o d base e,
  o_noEval o = true ->
  effects (build cron sig_ok tokenize sh o d base e) = [] /\ env_after (build cron sig_ok tokenize sh o d base e) = e.
Proof.
  intros o d base e Hn. change (quiet e (build cron sig_ok tokenize sh o d base)). unfold build.
  apply quiet_bind; [apply quiet_try, buildEnvs_quiet, Hn|]. intros r_env.
  apply quiet_bind; [apply quiet_try, quiet_lift|]. intros r_sch.
  apply quiet_bind; [apply quiet_try, buildParams_quiet, Hn|]. intros r_par.
  destruct (o_metadataOnly o); [collected; (apply quiet_ret || apply quiet_lift)|].
  apply quiet_bind; [apply quiet_try, quiet_lift|]. intros r_steps.
  apply quiet_bind; [apply quiet_try, buildLogDir_quiet, Hn|]. intros r_log.
  apply quiet_bind; [apply quiet_try, quiet_lift|]. intros r_hs.
  apply quiet_bind; [apply quiet_try, buildSMTPConfig_quiet|]. intros r_smtp.
  apply quiet_bind; [apply quiet_try, quiet_lift|]. intros r_pre.
  apply quiet_bind; [apply quiet_try, quiet_lift|]. intros r_fn.
  collected; (apply quiet_ret || apply quiet_lift).
Qed.

End Proofs.
