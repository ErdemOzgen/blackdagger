(* decode + build (loadYAML / loadDAG without base configuration): the theorems of Proofs.v and DecodeProofs.v
   put together over ALL untyped trees. *)
From Coq Require Import List ZArith String Ascii Bool Arith.
Import ListNotations.
From BD.Loader Require Import Str Model Decode Proofs DecodeProofs.
Open Scope string_scope.
Open Scope list_scope.

(* C13: loading any tree never panics.  Two hypotheses remain, both about libraries: the cron parser panics on
   nothing but a spec that is a bare TZ= / CRON_TZ= prefix - which parseCron no longer hands to it (fix 519d0a6);
   a parameter value the tokenizer's regular expression matched with its quoted alternative holds its two quotes. *)
Theorem load_no_panic :
  forall (cron : string -> cronv) (sig_ok : string -> bool) (tokenize : string -> list (string * string))
         (sh : string -> option string),
  (forall s, cron s = CronPanic -> tz_only s = true) ->
  (forall s n v, In (n, v) (tokenize s) -> quoted_wf v) ->
  forall (o : opts) (root : yv) (e : envt),
  outcome (load_tree cron sig_ok tokenize sh o root e) <> Panic.
Proof.
  intros cron sig_ok tokenize sh Hc Ht o root e. unfold load_tree.
  pose proof (decode_no_panic root) as Hdec.
  destruct (decode root) as [| |d] eqn:E; [now elim Hdec | discriminate |].
  apply build_no_panic; [exact Hc | exact Ht | exact (decode_no_nil _ _ E)].
Qed.

Theorem load_no_effects :
  forall (cron : string -> cronv) (sig_ok : string -> bool) (tokenize : string -> list (string * string))
         (sh : string -> option string) (o : opts) (root : yv) (e : envt),
  o_noEval o = true ->
  effects (load_tree cron sig_ok tokenize sh o root e) = [] /\ env_after (load_tree cron sig_ok tokenize sh o root e) = e.
Proof.
  intros cron sig_ok tokenize sh o root e Hn. unfold load_tree.
  destruct (decode root) as [| |d] eqn:E; try (split; reflexivity).
  apply build_no_effects; assumption.
Qed.

(* C19: the display path (load without evaluation + graph construction for validation) adds no effect *)
Lemma graph_nodes_quiet : forall e ss, quiet e (graph_nodes ss).
Proof.
  intros e. induction ss as [|s r IH]; simpl; [apply quiet_ret|].
  apply quiet_bind; [apply quiet_ret|]. intros x. apply quiet_bind; [exact IH | intros; apply quiet_ret].
Qed.

Theorem display_no_effects :
  forall (cron : string -> cronv) (sig_ok : string -> bool) (tokenize : string -> list (string * string))
         (sh : string -> option string) (o : opts) (root : yv) (e : envt),
  o_noEval o = true ->
  effects (display cron sig_ok tokenize sh o root e) = [] /\ env_after (display cron sig_ok tokenize sh o root e) = e.
Proof.
  intros cron sig_ok tokenize sh o root e Hn. change (quiet e (display cron sig_ok tokenize sh o root)).
  unfold display. apply quiet_bind; [exact (load_no_effects cron sig_ok tokenize sh o root e Hn)|].
  intros g. apply quiet_bind; [apply graph_nodes_quiet | intros; apply quiet_ret].
Qed.
