(* Concrete witnesses, computed by vm_compute: (1) the inputs on which /repo violated C13 / C19 before its fix
   commits (DESIGN.md section 6, F13a-g, F19a-b) as positive Examples of the model of the repaired code - each names
   the fix commit and what the code did before it; (2) Examples that the theorems are not vacuous on a concrete
   non-trivial definition. *)
From Coq Require Import List ZArith String Ascii Bool Arith.
Import ListNotations.
From BD.Loader Require Import Str Model Decode.
Open Scope string_scope.
Open Scope list_scope.

Definition cronW (s : string) : cronv :=
  if String.eqb s "TZ=UTC" then CronPanic else if String.eqb s "x" then CronErr else CronOk.
Definition sigW (s : string) : bool := String.eqb s "SIGTERM".
Definition reW (s : string) : bool := negb (String.eqb s "re:[").
Definition tokW (s : string) : list (string * string) := map (fun w => ("", w)) (fields s).
Definition shW (c : string) : option string := if prefixb "touch " c || prefixb "echo " c then Some "" else None.
Definition metW (a b : string) : bool := String.eqb a b.

Definition def_of (t : yv) : definition := match decode t with Ok d => d | _ => zero_def end.
Definition oYAML := {| o_metadataOnly := false; o_noEval := true; o_parameters := "" |}.   (* LoadYAML, LoadWithoutEval *)
Definition oMeta := {| o_metadataOnly := true; o_noEval := true; o_parameters := "" |}.    (* LoadMetadata *)
Definition oLoad := {| o_metadataOnly := false; o_noEval := false; o_parameters := "" |}.  (* Load *)
Definition buildW := build cronW sigW tokW shW.

Definition m (l : list (string * yv)) : yv := VMap (map (fun kv => (VStr (fst kv), snd kv)) l).
Definition step1 := m [("name", VStr "s1"); ("command", VStr "echo hi")].

Definition loadW (o : opts) (t : yv) := load_tree cronW sigW tokW shW o t [].

(* F13a: a key other than start / stop / restart in a schedule mapping.
   Before fix c2912bd the model answered Panic (nil *[]string dereference, parser.go:101). *)
Definition tree_F13a := m [("schedule", m [("foo", VStr "* * * * *")]); ("steps", VList [step1])].
Example fixed_F13a :
  no_nil (def_of tree_F13a) = true /\ outcome (buildW oYAML (def_of tree_F13a) [] []) = Err /\
  outcome (buildW oMeta (def_of tree_F13a) [] []) = Err.
Proof. vm_compute. auto. Qed.

(* F13b: a schedule string on which the cron library itself panics (cronW "TZ=UTC" = CronPanic).
   Before fix 519d0a6 the model answered Panic (the string reached cronParser.Parse). *)
Definition tree_F13b := m [("schedule", VStr "TZ=UTC"); ("steps", VList [step1])].
Example fixed_F13b :
  cronW "TZ=UTC" = CronPanic /\ d_schedule (def_of tree_F13b) = VStr "TZ=UTC" /\
  outcome (buildW oYAML (def_of tree_F13b) [] []) = Err /\ outcome (buildW oMeta (def_of tree_F13b) [] []) = Err.
Proof. vm_compute. auto. Qed.

(* F13c: a null element in steps / functions / preconditions.  Before fix c021988 decode let these through and
   the model of build answered Panic (nil dereference in assertStepDef / assertFunctions / buildConditions);
   now decode (assertNoNullElements) rejects the document. *)
Example fixed_F13c :
  outcome (loadW oYAML (m [("steps", VList [VNull])])) = Err /\
  outcome (loadW oYAML (m [("functions", VList [VNull]); ("steps", VList [step1])])) = Err /\
  outcome (loadW oYAML (m [("preconditions", VList [VNull]); ("steps", VList [step1])])) = Err /\
  outcome (loadW oYAML (m [("steps", VList [m [("name", VStr "s1"); ("command", VStr "echo hi"); ("preconditions", VList [VNull])]])])) = Err.
Proof. vm_compute. auto. Qed.

(* F13g: a non-string key in a mapping decoded into a nested struct.  Before fix e67ca4a the model of decode
   answered Panic (mapstructure's rawKey.(string)). *)
Example fixed_F13g :
  decode (m [("steps", VList [VMap [(VStr "name", VStr "s1"); (VStr "command", VStr "echo"); (VInt 1, VStr "x")]])]) = Err
  /\ decode (m [("smtp", VMap [(VNull, VStr "x")])]) = Err.
Proof. vm_compute. auto. Qed.

(* F13d: an `expected:` with the re: prefix whose pattern does not compile.  Before fix 089471d evaluating the
   accepted condition answered Panic (nil logger); now the pattern is dropped and the condition is not met. *)
Example fixed_F13d :
  exists d g, outcome (buildW oYAML d [] []) = Ok g /\ reW "re:[" = false /\
    outcome (evalConditions reW shW metW (g_preconditions g) []) = Err.
Proof.
  eexists (def_of (m [("preconditions", VList [m [("condition", VStr "`echo 1`"); ("expected", VStr "re:[")]]); ("steps", VList [step1])])), _.
  (* g is fixed by the first conjunct before the third is evaluated: evaluating with g still open leaves
     evalConditions to the unifier *)
  split; [vm_compute; reflexivity|]. split; vm_compute; reflexivity.
Qed.

(* F13e: nothing to execute.  Before fix aac42fa the model accepted these four definitions with an empty Command,
   CmdWithArgs and executor type; now buildStep rejects them. *)
Example fixed_F13e :
  outcome (loadW oYAML (m [("steps", VList [m [("name", VStr "s1"); ("command", VList [])]])])) = Err /\
  outcome (loadW oYAML (m [("steps", VList [m [("name", VStr "s1"); ("command", VList [VStr ""])]])])) = Err /\
  outcome (loadW oYAML (m [("steps", VList [m [("name", VStr "s1"); ("executor", VStr "")]])])) = Err /\
  outcome (loadW oYAML (m [("functions", VList [m [("name", VStr "f"); ("params", VStr "x"); ("command", VStr "$x")]]);
                           ("steps", VList [m [("name", VStr "s1"); ("call", m [("function", VStr "f"); ("args", m [("x", VStr "")])])]])])) = Err.
Proof. vm_compute. auto. Qed.

(* F13f: executor config holding a mapping inside a list / a non-finite float.  Before fix 667fb54 the model
   accepted both with json_ok g = false and serve_status g = Panic; now the mapping inside the list is converted
   (the DAG is accepted and serialisable) and the non-finite float is rejected. *)
Definition tree_F13f_map := m [("steps", VList [m [("name", VStr "s1"); ("executor",
        m [("type", VStr "http"); ("config", m [("headers", VList [m [("a", VInt 1)]])])])]])].
Definition tree_F13f_nan := m [("steps", VList [m [("name", VStr "s1"); ("executor",
        m [("type", VStr "http"); ("config", m [("timeout", VFloat FNaN "NaN" 0)])])]])].
Example fixed_F13f :
  (exists g, outcome (loadW oYAML tree_F13f_map) = Ok g /\ json_ok g = true /\ serve_status g = Ok tt) /\
  outcome (loadW oYAML tree_F13f_nan) = Err.
Proof.
  split; [eexists; split; [vm_compute; reflexivity|]|]; vm_compute; auto.
Qed.

(* F19a: a command substitution in logDir.  Before fix 4348d0d the model answered [EExec "touch /x"] under noEval. *)
Example fixed_F19a :
  exists d, d_logDir d = "`touch /x`" /\ effects (buildW oYAML d [] []) = [] /\
            effects (buildW oLoad d [] []) = [EExec "touch /x"].
Proof. exists (def_of (m [("logDir", VStr "`touch /x`"); ("steps", VList [step1])])). vm_compute. auto. Qed.

(* F19b: default parameters.  Before fix a55d876 the model answered [ESetenv "1" "p1"; ESetenv "2" "p2"] under noEval,
   even with metadataOnly. *)
Example fixed_F19b :
  exists d, d_params d = "p1 p2" /\
    effects (buildW oYAML d [] []) = [] /\ effects (buildW oMeta d [] []) = [] /\
    effects (buildW oLoad d [] []) = [ESetenv "1" "p1"; ESetenv "2" "p2"].
Proof. exists (def_of (m [("params", VStr "p1 p2"); ("steps", VList [step1])])). vm_compute. auto. Qed.

Definition example_tree : yv :=
  m [("name", VStr "wf");
     ("schedule", m [("start", VList [VStr "0 1 * * *"; VStr "TZ=UTC 0 2 * * *"]); ("stop", VStr "0 18 * * *")]);
     ("env", VList [m [("A", VStr "`echo a`")]; m [("B", VInt 2)]]);
     ("functions", VList [m [("name", VStr "f"); ("params", VStr "x"); ("command", VStr "echo $x")]]);
     ("preconditions", VList [m [("condition", VStr "`echo 1`"); ("expected", VStr "re:^[0-9]+$")]]);
     ("steps", VList [
        m [("name", VStr "s1"); ("command", VStr "echo hi"); ("signalOnStop", VStr "SIGTERM");
           ("preconditions", VList [m [("condition", VStr "$A"); ("expected", VStr "a")]])];
        m [("name", VStr "s2"); ("executor", m [("type", VStr "http");
              ("config", m [("timeout", VInt 5); ("headers", m [("h", m [("k", VStr "v")])]); ("codes", VList [VInt 200; VFloat FFin "1.5" 1])])]);
           ("command", VStr "GET http://x"); ("depends", VList [VStr "s1"])];
        m [("name", VStr "s3"); ("call", m [("function", VStr "f"); ("args", m [("x", VStr "v")])])];
        m [("name", VStr "s4"); ("run", VStr "sub"); ("params", VStr "K=1")];
        m [("name", VStr "s5"); ("command", VList [VStr ""; VStr "echo"; VInt 1])]]);
     ("handlerOn", m [("exit", m [("command", VStr "echo bye")]); ("failure", m [("executor", VStr "mail")])])].
Definition example_def := def_of example_tree.

Example premises_satisfiable :
  decode example_tree = Ok example_def /\ no_nil example_def = true /\
  (exists g, outcome (buildW oYAML example_def [] []) = Ok g /\ List.length (all_steps g) = 7 /\
             List.length (g_schedule g) = 2 /\ List.length (all_conditions g) = 2 /\ json_ok g = true) /\
  (exists g, outcome (buildW oLoad example_def [] []) = Ok g /\
             effects (buildW oLoad example_def [] []) = [EExec "echo a"; ESetenv "A" ""; ESetenv "B" "2"]).
Proof.
  split; [vm_compute; reflexivity|]. split; [vm_compute; reflexivity|].
  split; eexists; (split; [vm_compute; reflexivity|]); vm_compute; auto.
Qed.

(* a non-trivial definition WITH default parameters and a command substitution in logDir: loading it for viewing /
   listing has no effect; loading it for execution has the effects of env, params and logDir, in this order *)
Definition example_tree2 : yv :=
  match example_tree with
  | VMap l => VMap (l ++ [(VStr "params", VStr "p1 X=2"); (VStr "logDir", VStr "`echo /tmp/l`")])
  | t => t
  end.
Example no_effects_example :
  decode example_tree2 = Ok (def_of example_tree2) /\
  effects (buildW oYAML (def_of example_tree2) [] []) = [] /\ effects (buildW oMeta (def_of example_tree2) [] []) = [] /\
  effects (buildW oLoad (def_of example_tree2) [] []) =
    [EExec "echo a"; ESetenv "A" ""; ESetenv "B" "2"; ESetenv "1" "p1"; ESetenv "2" "X=2"; EExec "echo /tmp/l"].
Proof. vm_compute. auto. Qed.
