(* Properties of the specification itself (Spec.v), independent of any store: the three queries about a DAG depend only on its
   runs (dag_view); an operation leaves the runs of every DAG it does not name untouched (sp_isolation); a rename to a DAG without
   runs carries the answers over (sp_rename_carries); retention removes exactly the runs older than the cutoff
   (sp_retention_exact); newest_first is "most recently started first": a permutation sorted by start stamp.
   ProofsC06.v transfers them to the concrete store through the refinement (ProofsTop.trace_refines). *)
From Coq Require Import List String Ascii Bool Arith ZArith Lia Permutation Sorting.Sorted.
Import ListNotations.
From BD.Hist Require Import Model Spec ProofsLib.
Open Scope string_scope.
Open Scope list_scope.

Definition dagP (d : string) (a : arun) : bool := String.eqb (a_dag a) d.
Definition dag_view (H : hist) (d : string) : list arun := filter (dagP d) (h_runs H).

Definition dayP (day : option string) (a : arun) : bool :=
  match day with Some dd => String.eqb (take 8 (a_stamp a)) dd | None => true end.
Lemma runs_of_view H d day : runs_of H d day = filter (dayP day) (dag_view H d).
Proof. unfold runs_of, dag_view. rewrite filter_filter. reflexivity. Qed.

Lemma is_run_dag d req a : is_run d req a = true -> dagP d a = true.
Proof. unfold is_run. intros X. apply andb_prop in X. destruct X as [X _]. apply andb_prop in X. apply X. Qed.
Lemma sp_find_view H d req : sp_find H d req =
  if String.eqb req "" then None else match find (is_run d req) (dag_view H d) with Some a => last_opt (a_sts a) | None => None end.
Proof. unfold sp_find, dag_view. rewrite (find_filter_imp _ _ _ (is_run_dag d req)). reflexivity. Qed.
Lemma sp_latest_view H d day : sp_latest H d day =
  match newest_first (filter has_status (filter (dayP day) (dag_view H d))) with
  | [] => LNoData
  | a :: _ => match last_opt (a_sts a) with Some p => LOk p | None => LNoData end
  end.
Proof. unfold sp_latest. rewrite runs_of_view. reflexivity. Qed.
Lemma sp_recent_view H d n : sp_recent H d n =
  flat_map (fun a => match last_opt (a_sts a) with Some p => [p] | None => [] end)
           (firstn n (newest_first (filter has_status (filter (dayP None) (dag_view H d))))).
Proof. unfold sp_recent. rewrite runs_of_view. reflexivity. Qed.

Theorem queries_depend_on_view H H' d : dag_view H d = dag_view H' d ->
  (forall req, sp_find H d req = sp_find H' d req) /\ (forall day, sp_latest H d day = sp_latest H' d day)
  /\ (forall n, sp_recent H d n = sp_recent H' d n).
Proof.
  intros E. repeat split; intros; rewrite ?sp_find_view, ?sp_latest_view, ?sp_recent_view, E; reflexivity.
Qed.

Definition op_dags (H : hist) (o : op) : list string :=
  match o with
  | OOpen d _ _ _ | OUpdate d _ _ _ _ | ORemoveOld d _ | OTouch d _ _ _ _ => [d]
  | ORename d d' => [d; d']
  | OWrite _ _ _ | OClose _ =>
      match h_cur H with Some id => match get_run id (h_runs H) with Some a => [a_dag a] | None => [] end | None => [] end
  end.

Lemma upd_run_view d' id f l : (forall a, a_dag (f a) = a_dag a) ->
  (forall a, In a l -> a_id a = id -> a_dag a <> d') -> filter (dagP d') (upd_run id f l) = filter (dagP d') l.
Proof.
  intros Fd N. unfold upd_run. apply filter_map_stable. intros a Ia. destruct (Nat.eqb (a_id a) id) eqn:E; auto.
  right. apply Nat.eqb_eq in E. unfold dagP. rewrite Fd. split; apply String.eqb_neq; auto.
Qed.

Lemma get_run_some id l a : get_run id l = Some a -> In a l /\ a_id a = id.
Proof. unfold get_run. intros F. apply find_some in F. destruct F as [I E]. apply Nat.eqb_eq in E. auto. Qed.

Theorem sp_isolation H o d' : NoDup (map a_id (h_runs H)) -> ~ In d' (op_dags H o) -> dag_view (sp_apply H o) d' = dag_view H d'.
Proof.
  intros ND N. unfold dag_view. destruct o; simpl in *.
  - (* open *) rewrite filter_app. simpl. unfold dagP at 2. simpl.
    assert (X : String.eqb d d' = false) by (apply String.eqb_neq; intro; subst; tauto). rewrite X. apply app_nil_r.
  - (* write *) destruct (h_cur H) as [id|]; auto. destruct (get_run id (h_runs H)) as [a|] eqn:G; auto. simpl.
    apply get_run_some in G. destruct G as [Ia Ei]. apply upd_run_view; auto.
    intros b Ib Eb X. apply N. left. assert (a = b). { apply (NoDup_map_inj a_id (h_runs H)); auto. congruence. } subst. auto.
  - (* close *) destruct (h_cur H) as [id|]; auto. simpl. destruct (get_run id (h_runs H)) as [a|] eqn:G.
    + apply get_run_some in G. destruct G as [Ia Ei]. apply upd_run_view.
      * intros b. destruct (a_sts b); reflexivity.
      * intros b Ib Eb X. apply N. left. assert (a = b). { apply (NoDup_map_inj a_id (h_runs H)); auto. congruence. } subst. auto.
    + apply upd_run_view. { intros b. destruct (a_sts b); reflexivity. }
      intros b Ib Eb. exfalso. unfold get_run in G. apply (find_none _ _ G) in Ib. apply Nat.eqb_neq in Ib. contradiction.
  - (* update *) destruct (String.eqb req ""); auto. destruct (find (is_run d req) (h_runs H)) as [a|] eqn:F; auto. simpl.
    apply find_some in F. destruct F as [Ia Ra]. apply upd_run_view; auto.
    intros b Ib Eb X. assert (a = b). { apply (NoDup_map_inj a_id (h_runs H)); auto. } subst b.
    unfold is_run in Ra. apply andb_prop in Ra. destruct Ra as [Ra _]. apply andb_prop in Ra. destruct Ra as [Ra _].
    apply String.eqb_eq in Ra. apply N. left. congruence.
  - (* rename *) apply filter_map_stable. intros a Ia. destruct (String.eqb (a_dag a) d) eqn:E; auto. right.
    apply String.eqb_eq in E. unfold dagP. simpl. split; apply String.eqb_neq; intro X; apply N; [left|right; left]; congruence.
  - (* retention *) rewrite filter_filter. apply filter_ext. intros a. unfold dagP. destruct (String.eqb (a_dag a) d') eqn:E; [|apply andb_false_r].
    apply String.eqb_eq in E. assert (X : String.eqb (a_dag a) d = false). { apply String.eqb_neq. intro Y. apply N. left. congruence. }
    rewrite X. reflexivity.
  - (* touch *) apply filter_map_stable. intros a Ia.
    destruct (String.eqb (a_dag a) d && String.eqb (a_stamp a) stamp && String.eqb (trunc8 (a_req a)) r8)%bool eqn:E; auto.
    right. apply andb_prop in E. destruct E as [E _]. apply andb_prop in E. destruct E as [E _]. apply String.eqb_eq in E.
    unfold dagP. simpl. split; apply String.eqb_neq; intro X; apply N; left; congruence.
Qed.

Lemma dayfilter_map (g : arun -> arun) day l : (forall a, a_stamp (g a) = a_stamp a) ->
  filter (dayP day) (map g l) = map g (filter (dayP day) l).
Proof.
  intros G. rewrite filter_map_comm. f_equal. apply filter_ext. intros a. unfold dayP. rewrite G. reflexivity.
Qed.
Lemma statusfilter_map (g : arun -> arun) l : (forall a, a_sts (g a) = a_sts a) ->
  filter has_status (map g l) = map g (filter has_status l).
Proof. intros G. rewrite filter_map_comm. f_equal. apply filter_ext. intros a. unfold has_status. rewrite G. reflexivity. Qed.
Lemma newest_map (g : arun -> arun) l : (forall a, a_stamp (g a) = a_stamp a) -> newest_first (map g l) = map g (newest_first l).
Proof.
  intros G. unfold newest_first. rewrite sort_desc_map. f_equal. apply sort_desc_ext. intros x y _ _. rewrite !G. reflexivity.
Qed.

Theorem sp_rename_carries H d d' : dag_view H d' = [] ->
  let H' := sp_apply H (ORename d d') in
  (forall req, sp_find H' d' req = sp_find H d req) /\ (forall day, sp_latest H' d' day = sp_latest H d day)
  /\ (forall n, sp_recent H' d' n = sp_recent H d n).
Proof.
  intros E H'.
  assert (V : dag_view H' d' = map (set_dag d') (dag_view H d)).
  { unfold H', dag_view. simpl. unfold dag_view in E.
    induction (h_runs H) as [|a l IH]; simpl in *; auto.
    destruct (dagP d' a) eqn:E1; [discriminate|]. unfold dagP in *.
    destruct (String.eqb (a_dag a) d) eqn:E2; simpl.
    - rewrite String.eqb_refl. simpl. f_equal. apply IH; auto.
    - rewrite E1. apply IH; auto. }
  assert (DV : forall a, In a (dag_view H d) -> a_dag a = d).
  { intros a I. unfold dag_view in I. apply filter_In in I. destruct I as [_ X]. apply String.eqb_eq in X. auto. }
  split; [|split].
  - intros req. rewrite !sp_find_view. destruct (String.eqb req ""); auto. rewrite V, find_map.
    assert (X : forall l, (forall a, In a l -> a_dag a = d) ->
                find (fun a => is_run d' req (set_dag d' a)) l = find (is_run d req) l).
    { induction l as [|a l IH]; simpl; intros Hl; auto. unfold is_run at 1 3. simpl.
      rewrite String.eqb_refl, (Hl a (or_introl eq_refl)), String.eqb_refl. simpl.
      destruct (String.eqb (a_req a) req && match a_sts a with [] => false | _ :: _ => true end)%bool; auto. }
    rewrite X by exact DV. destruct (find (is_run d req) (dag_view H d)); reflexivity.
  - intros day. rewrite !sp_latest_view, V. rewrite (dayfilter_map (set_dag d')) by reflexivity.
    rewrite (statusfilter_map (set_dag d')) by reflexivity. rewrite (newest_map (set_dag d')) by reflexivity.
    destruct (newest_first (filter has_status (filter (dayP day) (dag_view H d)))); reflexivity.
  - intros n. rewrite !sp_recent_view, V. rewrite (dayfilter_map (set_dag d')) by reflexivity.
    rewrite (statusfilter_map (set_dag d')) by reflexivity. rewrite (newest_map (set_dag d')) by reflexivity. rewrite firstn_map.
    rewrite !flat_map_concat_map, map_map. reflexivity.
Qed.

Theorem sp_retention_exact H d cutoff a :
  In a (h_runs (sp_apply H (ORemoveOld d cutoff))) <-> In a (h_runs H) /\ ~ (a_dag a = d /\ (a_mtime a < cutoff)%Z).
Proof.
  simpl. rewrite filter_In. split; intros [I X]; split; auto.
  - intros [E1 E2]. rewrite E1, String.eqb_refl in X. apply Z.ltb_lt in E2. rewrite E2 in X. discriminate.
  - apply negb_true_iff. apply not_true_is_false. intro Y. apply andb_prop in Y. destruct Y as [Y1 Y2].
    apply String.eqb_eq in Y1. apply Z.ltb_lt in Y2. tauto.
Qed.

Theorem newest_first_spec l :
  Permutation (newest_first l) l /\ StronglySorted (fun a b => String.ltb (a_stamp a) (a_stamp b) = false) (newest_first l).
Proof. split. apply sort_desc_perm. apply (sort_desc_sorted a_stamp). Qed.
