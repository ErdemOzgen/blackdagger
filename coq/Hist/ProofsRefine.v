(* L1 ~ spec: the structured model of the history store (SModel.v) refines the run map (Spec.v).  A simulation relation R2 pairs
   every file of the store with one run of the specification (frun) and is preserved by every operation (step_sim) under the
   decidable premises hist_okb (after every operation the runs of one DAG have pairwise distinct request ids and pairwise distinct
   start stamps yyyymmdd.hh:mm:ss.mmm - since e6d6379 the ordering sees the milliseconds) and op_okb (a path is never re-created:
   ghost `seen`; rename to a different DAG and retention are not applied to the DAG whose run is being recorded; recorded statuses
   have a positive size).  The three queries answer what the specification says (find_refines, latest_refines, recent_refines). *)
From Coq Require Import List String Ascii Bool Arith ZArith Lia Permutation.
Import ListNotations.
From BD.Hist Require Import Model SModel Spec ProofsLib ProofsStore.
Open Scope string_scope.
Open Scope list_scope.

Lemma NoDup_snoc {A} (l : list A) x : NoDup l -> ~ In x l -> NoDup (l ++ [x]).
Proof. intros N I. apply (Permutation_NoDup (Permutation_cons_append l x)). constructor; auto. Qed.
Lemma NoDup_map_of_inj {A B} (f : A -> B) l : NoDup l -> (forall x y, In x l -> In y l -> f x = f y -> x = y) -> NoDup (map f l).
Proof.
  induction l as [|a l IH]; simpl; intros N I; [constructor|]. inversion N as [|? ? Hn Hd]; subst. constructor.
  - intro X. apply in_map_iff in X. destruct X as [b [E Ib]]. assert (b = a) by (apply I; auto). subst. contradiction.
  - apply IH; auto.
Qed.
Lemma NoDup_map_filter {A B} (f : A -> B) (P : A -> bool) l : NoDup (map f l) -> NoDup (map f (filter P l)).
Proof.
  induction l as [|a l IH]; simpl; intros N; [constructor|]. inversion N as [|? ? Hn Hd]; subst.
  destruct (P a); simpl; auto. constructor; auto.
  intro X. apply Hn. apply in_map_iff in X. destruct X as [b [E I]]. apply filter_In in I. destruct I as [I _].
  rewrite <- E. apply in_map. auto.
Qed.
Lemma find_unique {A} (p : A -> bool) l a : In a l -> p a = true -> (forall b, In b l -> p b = true -> b = a) -> find p l = Some a.
Proof.
  intros I P U. destruct (find p l) as [b|] eqn:F.
  - apply find_some in F. f_equal. apply U; apply F.
  - rewrite (find_none _ _ F a I) in P. discriminate.
Qed.

Definition memk (k : skey) (l : list skey) : bool := existsb (skey_eqb k) l.
Lemma memk_false k l : memk k l = false <-> ~ In k l.
Proof. unfold memk. rewrite <- existsb_skey. destruct (existsb (skey_eqb k) l); split; congruence. Qed.
Lemma seen_fresh s seen k : incl (keys s) seen -> negb (memk k seen) = true -> ~ In k (keys s).
Proof. intros IS O I. apply negb_true_iff, memk_false in O. apply O, IS, I. Qed.

Definition same_run_key (d stamp r8 : string) (k : skey) : bool :=
  String.eqb (k_dag k) d && String.eqb (k_stamp k) stamp && String.eqb (k_r8 k) r8.
Definition wr_off (h : sstate) (d : string) : bool :=
  match swr h with Some w => negb (String.eqb (k_dag (sw_key w)) d) | None => true end.

(* OClose asks that the compacted twin AND its temporary copy <twin>.tmp are new keys: Close writes the copy under the temporary key
   with chunks whose size nothing bounds from below, which the cache invariant (ProofsCache.prim_ok) allows only under a key that no
   cache entry can refer to *)
Definition op_okb (h : sstate) (seen : list skey) (o : op) : bool :=
  match o with
  | OOpen d stamp req now =>
      negb (memk (mkkey d stamp (trunc8 req) false) seen) && negb (memk (mkkey d stamp (trunc8 req) true) seen)
  | OWrite tag size now => (0 <? size)%Z
  | OClose now => match swr h with
                  | Some w => negb (memk (twin (sw_key w)) seen) && negb (memk (tmpk (twin (sw_key w))) seen)
                  | None => true end
  | OUpdate d req tag size now => (0 <? size)%Z
  | ORename d d' =>
      negb (String.eqb d d') && wr_off h d
      && forallb (fun e => if String.eqb (k_dag (fst e)) d then negb (memk (rekey d' (fst e)) seen) else true) (sfiles (sst h))
  | ORemoveOld d cutoff => wr_off h d
  | OTouch d stamp r8 c t =>
      shas (sst h) (mkkey d stamp r8 c) || negb (existsb (fun e => same_run_key d stamp r8 (fst e)) (sfiles (sst h)))
  end.

Definition clash (a b : arun) : bool :=
  String.eqb (a_dag a) (a_dag b) && (String.eqb (a_req a) (a_req b) || String.eqb (a_stamp a) (a_stamp b)).
Definition hist_okb (H : hist) : bool :=
  forallb (fun a => forallb (fun b => implb (clash a b) (Nat.eqb (a_id a) (a_id b))) (h_runs H)) (h_runs H).

Definition hist_ok (H : hist) : Prop := forall a b, In a (h_runs H) -> In b (h_runs H) -> clash a b = true -> a_id a = a_id b.
Lemma hist_okb_iff H : hist_okb H = true <-> hist_ok H.
Proof.
  unfold hist_okb, hist_ok. split.
  - intros O a b Ia Ib C. rewrite forallb_forall in O. specialize (O a Ia). rewrite forallb_forall in O. specialize (O b Ib).
    rewrite C in O. apply Nat.eqb_eq in O. exact O.
  - intros O. apply forallb_forall. intros a Ia. apply forallb_forall. intros b Ib.
    destruct (clash a b) eqn:C; simpl; auto. apply Nat.eqb_eq. apply O; auto.
Qed.
Lemma clash_true a b : a_dag a = a_dag b -> (a_req a = a_req b \/ a_stamp a = a_stamp b) -> clash a b = true.
Proof.
  intros Ed C. unfold clash. rewrite Ed, String.eqb_refl. apply orb_true_iff.
  destruct C as [C|C]; rewrite C, String.eqb_refl; auto.
Qed.
Lemma hist_ok_prop H a b : hist_okb H = true -> NoDup (map a_id (h_runs H)) -> In a (h_runs H) -> In b (h_runs H) ->
  a_dag a = a_dag b -> (a_req a = a_req b \/ a_stamp a = a_stamp b) -> a = b.
Proof.
  intros O N Ia Ib Ed C. apply (NoDup_map_inj a_id (h_runs H)); auto.
  apply hist_okb_iff in O. apply O; auto. apply clash_true; auto.
Qed.

(* st = true: the relation of crash-free states (no torn tail, the file's age is the run's age);
   st = false: what the queries need - it also relates the states a crash leaves behind (ProofsCrash.v).
   The last clause (every recorded status carries the run's request id) is what makes the lookup by request id agree on both
   sides: the file is tested by the request id of its last status, the run by its own (cand_run). *)
Definition frun (st : bool) (e : sent) (a : arun) : Prop :=
  k_dag (fst e) = a_dag a /\ k_stamp (fst e) = a_stamp a /\ k_r8 (fst e) = trunc8 (a_req a)
  /\ parse (snd e) = last_opt (a_sts a) /\ (st = true -> ftail (snd e) = TNone) /\ (st = true -> mtime (snd e) = a_mtime a)
  /\ Forall (fun p => p_req p = a_req a) (a_sts a).

Definition pairing := list (sent * arun).

(* the recording process and the open run of the specification: the writer's file is paired with that run.  The file is the
   uncompacted one (Close compacts it into its twin, which therefore is another key) and the descriptor still points at it (Write
   appends through the descriptor; under op_okb no operation unlinks or renames the file of the open run) *)
Definition wr_ok (L : pairing) (w : option swriter) (cur : option nat) : Prop :=
  match w, cur with
  | None, None => True
  | Some w, Some id =>
      sw_fd w = Some (sw_key w) /\ k_c (sw_key w) = false
      /\ exists e a, In (e, a) L /\ fst e = sw_key w /\ a_id a = id /\ sw_req w = a_req a
  | _, _ => False
  end.

Record R2g (st : bool) (h : sstate) (H : hist) (L : pairing) : Prop := {
  r_fst : map fst L = sfiles (sst h);
  r_snd : Permutation (map snd L) (h_runs H);
  r_frun : Forall (fun x => frun st (fst x) (snd x)) L;
  r_wr : wr_ok L (swr h) (h_cur H);
  r_keys : NoDup (keys (sst h));
  r_ids : NoDup (map a_id (h_runs H));
  r_idlt : forall a, In a (h_runs H) -> (a_id a < h_next H)%nat;
  r_dirs : forall e, In e (sfiles (sst h)) -> shas_dir (sst h) (k_dag (fst e)) = true;
  r_plain : forall e, In e (sfiles (sst h)) -> k_tmp (fst e) = false      (* no temporary copy is left behind *)
}.
Arguments r_fst {st h H L}. Arguments r_snd {st h H L}. Arguments r_frun {st h H L}. Arguments r_wr {st h H L}.
Arguments r_keys {st h H L}. Arguments r_ids {st h H L}. Arguments r_idlt {st h H L}. Arguments r_dirs {st h H L}.
Arguments r_plain {st h H L}.

Notation R2 := (R2g true).

Definition kof (x : sent * arun) : skey := fst (fst x).
Definition idof (x : sent * arun) : nat := a_id (snd x).
Definition pair_ok (st : bool) (s : sfs) (x : sent * arun) : Prop :=
  frun st (fst x) (snd x) /\ shas_dir s (k_dag (kof x)) = true /\ k_tmp (kof x) = false.

Lemma R2g_intro st h H L :
  map fst L = sfiles (sst h) -> Permutation (map snd L) (h_runs H) -> wr_ok L (swr h) (h_cur H) ->
  NoDup (map kof L) -> NoDup (map idof L) ->
  (forall x, In x L -> pair_ok st (sst h) x /\ (idof x < h_next H)%nat) ->
  R2g st h H L.
Proof.
  intros Ef Ps W Nk Ni Px.
  assert (IF : forall e, In e (sfiles (sst h)) -> exists x, In x L /\ fst x = e).
  { rewrite <- Ef. intros e I. apply in_map_iff in I. destruct I as [x [E I]]. eauto. }
  constructor; auto.
  - apply Forall_forall. intros x I. apply Px; auto.
  - unfold keys. rewrite <- Ef, map_map. exact Nk.
  - apply (Permutation_NoDup (Permutation_map a_id Ps)). rewrite map_map. exact Ni.
  - intros a Ia. apply (Permutation_in _ (Permutation_sym Ps)) in Ia. apply in_map_iff in Ia. destruct Ia as [x [E I]].
    subst a. apply Px; auto.
  - intros e Ie. destruct (IF e Ie) as [x [I E]]. subst e. apply (Px x I).
  - intros e Ie. destruct (IF e Ie) as [x [I E]]. subst e. apply (Px x I).
Qed.

Lemma R2_init : R2 s_init hist_init [].
Proof. apply R2g_intro; simpl; auto; try (intros x []); constructor. Qed.

Section Facts.
Context {st : bool} {h : sstate} {H : hist} {L : pairing}.
Hypothesis R : R2g st h H L.

Lemma L_in_file x : In x L -> In (fst x) (sfiles (sst h)).
Proof. intros I. rewrite <- (r_fst R). apply in_map. auto. Qed.
Lemma L_in_run x : In x L -> In (snd x) (h_runs H).
Proof. intros I. apply (Permutation_in _ (r_snd R)). apply in_map. auto. Qed.
Lemma L_frun x : In x L -> frun st (fst x) (snd x).
Proof. exact (proj1 (Forall_forall _ _) (r_frun R) x). Qed.
Lemma L_keys : map kof L = keys (sst h).
Proof. unfold keys. rewrite <- (r_fst R), map_map. reflexivity. Qed.
Lemma R2g_elim : NoDup (map kof L) /\ NoDup (map idof L)
  /\ forall x, In x L -> pair_ok st (sst h) x /\ (idof x < h_next H)%nat.
Proof.
  split; [|split].
  - rewrite L_keys. apply (r_keys R).
  - unfold idof. rewrite <- (map_map snd a_id). apply (Permutation_NoDup (Permutation_map a_id (Permutation_sym (r_snd R)))), (r_ids R).
  - intros x I. pose proof (L_in_file x I) as If. split; [split; [|split]|].
    + apply L_frun; auto.
    + apply (r_dirs R); auto.
    + apply (r_plain R); auto.
    + apply (r_idlt R), L_in_run, I.
Qed.
Lemma L_key_unique x y : In x L -> In y L -> kof x = kof y -> x = y.
Proof. apply NoDup_map_inj, R2g_elim. Qed.
Lemma L_id_unique x y : In x L -> In y L -> idof x = idof y -> x = y.
Proof. apply NoDup_map_inj, R2g_elim. Qed.
Lemma run_in_L a : In a (h_runs H) -> exists e, In (e, a) L.
Proof.
  intros I. apply (Permutation_in _ (Permutation_sym (r_snd R))) in I.
  apply in_map_iff in I. destruct I as [[e a'] [E I]]. subst. eauto.
Qed.
Lemma file_in_L e : In e (sfiles (sst h)) -> exists a, In (e, a) L.
Proof.
  intros I. rewrite <- (r_fst R) in I. apply in_map_iff in I. destruct I as [[e' a] [E I]]. subst. eauto.
Qed.
Lemma L_sget e a : In (e, a) L -> sget (sst h) (fst e) = Some (snd e).
Proof. intros I. apply in_sget. { apply (r_keys R). } apply L_in_file in I. destruct e; auto. Qed.
Lemma run_unique a b : In a (h_runs H) -> In b (h_runs H) -> a_id a = a_id b -> a = b.
Proof. apply NoDup_map_inj, (r_ids R). Qed.
Lemma L_clash_unique x y : hist_okb H = true -> In x L -> In y L -> a_dag (snd x) = a_dag (snd y) ->
  (a_req (snd x) = a_req (snd y) \/ a_stamp (snd x) = a_stamp (snd y)) -> x = y.
Proof.
  intros O Ix Iy Ed C. apply L_id_unique; auto. unfold idof. f_equal.
  apply (hist_ok_prop H); auto using L_in_run. apply (r_ids R).
Qed.
Lemma pair_pick k id x0 : In x0 L -> kof x0 = k -> idof x0 = id ->
  forall x, In x L -> skey_eqb k (kof x) = Nat.eqb (idof x) id.
Proof.
  intros I0 Ek Ei x Ix. destruct (skey_eqb_spec k (kof x)) as [E1|E1], (Nat.eqb_spec (idof x) id) as [E2|E2]; auto; exfalso.
  - apply E2. rewrite (L_key_unique x x0); auto. congruence.
  - apply E1. rewrite (L_id_unique x x0); auto. congruence.
Qed.
Lemma wr_none : swr h = None -> h_cur H = None.
Proof. intros EW. pose proof (r_wr R) as W. rewrite EW in W. destruct (h_cur H); [destruct W|reflexivity]. Qed.
Lemma wr_pair w : swr h = Some w ->
  exists e0 a0, In (e0, a0) L /\ fst e0 = sw_key w /\ h_cur H = Some (a_id a0) /\ sw_req w = a_req a0
                /\ sw_fd w = Some (sw_key w) /\ k_c (sw_key w) = false.
Proof.
  intros EW. pose proof (r_wr R) as W. rewrite EW in W. destruct (h_cur H) as [id|]; [|destruct W].
  destruct W as [W1 [W2 [e0 [a0 [I0 [E1 [E2 E3]]]]]]]. exists e0, a0. auto 7.
Qed.
End Facts.

Lemma frun_dag st e a : frun st e a -> k_dag (fst e) = a_dag a.  Proof. intros F. apply F. Qed.
Lemma frun_stamp st e a : frun st e a -> k_stamp (fst e) = a_stamp a.  Proof. intros F. apply F. Qed.
Lemma frun_parse st e a : frun st e a -> parse (snd e) = last_opt (a_sts a).  Proof. intros F. apply F. Qed.
Lemma frun_tail e a : frun true e a -> ftail (snd e) = TNone.  Proof. intros F. apply F. reflexivity. Qed.
Lemma frun_mtime e a : frun true e a -> mtime (snd e) = a_mtime a.  Proof. intros F. apply F. reflexivity. Qed.
Lemma frun_reqs st e a : frun st e a -> Forall (fun p => p_req p = a_req a) (a_sts a).  Proof. intros F. apply F. Qed.

Lemma wr_ok_intro (L : pairing) w e a : In (e, a) L -> fst e = sw_key w -> sw_req w = a_req a ->
  sw_fd w = Some (sw_key w) -> k_c (sw_key w) = false -> wr_ok L (Some w) (Some (a_id a)).
Proof. intros I E1 E3 W1 W2. split; auto. split; auto. exists e, a. auto. Qed.

Lemma wr_ok_move L L' w c : wr_ok L w c ->
  (forall x, In x L -> exists y, In y L' /\ kof y = kof x /\ idof y = idof x /\ a_req (snd y) = a_req (snd x)) ->
  wr_ok L' w c.
Proof.
  unfold wr_ok. destruct w as [w|], c as [c|]; auto. intros [W1 [W2 [e [a [I [E1 [E2 E3]]]]]]] M.
  destruct (M (e, a) I) as [[e' a'] [I' [K [D Rq]]]]. unfold kof, idof in *. simpl in *.
  split; auto. split; auto. exists e', a'. repeat split; congruence.
Qed.

Lemma R2g_map st h H L (phi : sent * arun -> sent * arun) h' H' :
  R2g st h H L ->
  sfiles (sst h') = map (fun x => fst (phi x)) L ->
  Permutation (map (fun x => snd (phi x)) L) (h_runs H') -> h_next H' = h_next H ->
  wr_ok (map phi L) (swr h') (h_cur H') ->
  NoDup (map (fun x => kof (phi x)) L) ->
  (forall x, In x L -> pair_ok st (sst h) x -> pair_ok st (sst h') (phi x) /\ idof (phi x) = idof x) ->
  R2g st h' H' (map phi L).
Proof.
  intros R Ef Ps En W Nk Px. destruct (R2g_elim R) as [_ [Ni Ex]].
  apply R2g_intro; rewrite ?map_map; auto.
  - rewrite (map_ext_in _ idof); auto. intros x I. apply Px; auto. apply Ex; auto.
  - intros y Iy. apply in_map_iff in Iy. destruct Iy as [x [E I]]. subst y.
    destruct (Ex x I) as [P Lt]. destruct (Px x I P) as [P' Ei]. rewrite Ei, En. auto.
Qed.

Lemma R2g_filter st h H L (P : sent * arun -> bool) h' H' :
  R2g st h H L -> sdirs (sst h') = sdirs (sst h) -> sfiles (sst h') = map fst (filter P L) ->
  Permutation (map snd (filter P L)) (h_runs H') -> h_next H' = h_next H ->
  wr_ok (filter P L) (swr h') (h_cur H') ->
  R2g st h' H' (filter P L).
Proof.
  intros R Ed Ef Ps En W. destruct (R2g_elim R) as [Nk [Ni Ex]].
  apply R2g_intro; auto using NoDup_map_filter.
  intros x I. apply filter_In in I. destruct I as [I _]. destruct (Ex x I) as [[F [D T]] Lt]. rewrite En.
  split; auto. split; auto. split; auto. unfold shas_dir. rewrite Ed. exact D.
Qed.

Definition mvd (d' : string) (x : sent * arun) : sent * arun := ((rekey d' (kof x), snd (fst x)), set_dag d' (snd x)).
Definition mvsel (d' : string) (sel : skey -> bool) (x : sent * arun) : sent * arun := if sel (kof x) then mvd d' x else x.
Lemma R2g_rekey st h H L d d' (sel : skey -> bool) h' H' :
  R2g st h H L ->
  (forall x, In x L -> sel (kof x) = true -> k_dag (kof x) = d /\ ~ In (rekey d' (kof x)) (keys (sst h))) ->
  sfiles (sst h') = map (fun x => fst (mvsel d' sel x)) L ->
  Permutation (map (fun x => snd (mvsel d' sel x)) L) (h_runs H') -> h_next H' = h_next H ->
  wr_ok (map (mvsel d' sel) L) (swr h') (h_cur H') ->
  shas_dir (sst h') d' = true ->
  (forall x, In x L -> sel (kof x) = false -> shas_dir (sst h) (k_dag (kof x)) = true -> shas_dir (sst h') (k_dag (kof x)) = true) ->
  R2g st h' H' (map (mvsel d' sel) L).
Proof.
  intros R SEL Ef Ps En W Dd' Dk.
  assert (IK : forall z, In z L -> In (kof z) (keys (sst h))) by (intros z Iz; rewrite <- (L_keys R); apply in_map, Iz).
  apply (R2g_map st h H L (mvsel d' sel)); auto.
  - (* the new keys differ from each other and from the keys that stay *)
    apply NoDup_map_of_inj. { apply (NoDup_map_inv kof), (R2g_elim R). }
    intros x y Ix Iy E. apply (L_key_unique R); auto. unfold mvsel in E.
    destruct (sel (kof x)) eqn:D1, (sel (kof y)) eqn:D2; cbn [mvd kof fst] in E; auto.
    + destruct (SEL x Ix D1), (SEL y Iy D2). apply (rekey_inj d'); congruence.
    + exfalso. destruct (SEL x Ix D1) as [_ F]. apply F. rewrite E. apply IK, Iy.
    + exfalso. destruct (SEL y Iy D2) as [_ F]. apply F. rewrite <- E. apply IK, Ix.
  - intros x Ix [F [D T]]. unfold mvsel. destruct (sel (kof x)) eqn:Ed; (split; [|reflexivity]).
    + destruct F as [G1 [G2 [G3 [G4 [G5 [G6 G7]]]]]]. split; [|split; [exact Dd'|exact T]].
      unfold frun. auto 10.
    + split; [exact F|split; [apply Dk; auto|exact T]].
Qed.

Definition pres (f : arun -> arun) : Prop := forall a, a_id (f a) = a_id a /\ a_req (f a) = a_req a.
Lemma pres_add p now : pres (add_status p now).  Proof. intros a; split; reflexivity. Qed.
Lemma pres_mtime t : pres (set_mtime t).  Proof. intros a; split; reflexivity. Qed.
Lemma pres_dag d : pres (set_dag d).  Proof. intros a; split; reflexivity. Qed.

Lemma upd_run_ids id f l : pres f -> map a_id (upd_run id f l) = map a_id l.
Proof. intros P. unfold upd_run. rewrite map_map. apply map_ext. intros a. destruct (Nat.eqb (a_id a) id); auto. apply P. Qed.
Lemma get_run_unique id l a : NoDup (map a_id l) -> In a l -> a_id a = id -> get_run id l = Some a.
Proof.
  intros N I E. apply find_unique; auto. { apply Nat.eqb_eq, E. }
  intros b Ib Eb. apply Nat.eqb_eq in Eb. apply (NoDup_map_inj a_id l); auto. congruence.
Qed.
Lemma upd_run_same id f l : (forall a, In a l -> a_id a = id -> f a = a) -> upd_run id f l = l.
Proof.
  intros E. unfold upd_run. rewrite <- (map_id l) at 2. apply map_ext_in. intros a Ia.
  destruct (Nat.eqb (a_id a) id) eqn:Ei; auto. apply Nat.eqb_eq in Ei. auto.
Qed.

Definition upd_pair (k : skey) (g : file -> file) (f : arun -> arun) (x : sent * arun) : sent * arun :=
  if skey_eqb k (kof x) then ((k, g (snd (fst x))), f (snd x)) else x.

(* q tells on the side of the runs which pair is the one of key k *)
Lemma R2g_upd st h H L k (q : arun -> bool) g f h' H' :
  R2g st h H L -> pres f ->
  (forall x, In x L -> skey_eqb k (kof x) = q (snd x)) ->
  (forall x, In x L -> kof x = k -> frun st (k, g (snd (fst x))) (f (snd x))) ->
  sst h' = {| sdirs := sdirs (sst h); sfiles := upd_key k g (sfiles (sst h)) |} ->
  h_runs H' = map (fun a => if q a then f a else a) (h_runs H) -> h_next H' = h_next H ->
  ((swr h' = swr h /\ h_cur H' = h_cur H) \/ (swr h' = None /\ h_cur H' = None)) ->
  R2g st h' H' (map (upd_pair k g f) L).
Proof.
  intros R P Q FR ES ER EN EW.
  assert (KK : forall x, kof (upd_pair k g f x) = kof x).
  { intros x. unfold upd_pair. destruct (skey_eqb_spec k (kof x)); auto. }
  apply (R2g_map st h H L); auto.
  - rewrite ES. rewrite <- (r_fst R). unfold upd_key, upd_pair. rewrite map_map. apply map_ext.
    intros x. unfold kof. destruct (skey_eqb k (fst (fst x))); auto.
  - rewrite ER. eapply Permutation_trans; [|apply Permutation_map, (r_snd R)]. rewrite map_map. apply Permutation_refl', map_ext_in.
    intros x Ix. unfold upd_pair. rewrite (Q x Ix). destruct (q (snd x)); auto.
  - destruct EW as [[E1 E2]|[E1 E2]]; rewrite E1, E2; [|exact I]. apply (wr_ok_move L); [apply (r_wr R)|].
    intros x Ix. exists (upd_pair k g f x). split; [apply in_map; auto|]. split; [apply KK|].
    unfold upd_pair, idof. destruct (skey_eqb k (kof x)); auto. apply P.
  - rewrite (map_ext _ kof KK). apply (R2g_elim R).
  - intros x Ix [F [D T]]. rewrite ES. unfold pair_ok. rewrite KK. unfold upd_pair. destruct (skey_eqb_spec k (kof x)) as [E|]; auto.
    split; [|apply P]. split; [apply FR|]; auto.
Qed.
Lemma R2_update st h H L k id g f h' H' e0 a0 :
  R2g st h H L -> In (e0, a0) L -> fst e0 = k -> a_id a0 = id -> frun st (k, g (snd e0)) (f a0) -> pres f ->
  sst h' = {| sdirs := sdirs (sst h); sfiles := upd_key k g (sfiles (sst h)) |} ->
  h_runs H' = upd_run id f (h_runs H) -> h_next H' = h_next H ->
  ((swr h' = swr h /\ h_cur H' = h_cur H) \/ (swr h' = None /\ h_cur H' = None)) ->
  R2g st h' H' (map (upd_pair k g f) L).
Proof.
  intros R I0 Ek Ei FR P. apply (R2g_upd st h H L k (fun a => Nat.eqb (a_id a) id)); auto.
  - exact (pair_pick R k id (e0, a0) I0 Ek Ei).
  - intros x Ix Kx. assert (x = (e0, a0)) by (apply (L_key_unique R); auto; rewrite Kx; symmetry; exact Ek). subst x. exact FR.
Qed.

Lemma R2g_same st h H L h' H' :
  R2g st h H L -> sst h' = sst h -> h_runs H' = h_runs H -> h_next H' = h_next H ->
  ((swr h' = swr h /\ h_cur H' = h_cur H) \/ (swr h' = None /\ h_cur H' = None)) -> R2g st h' H' L.
Proof.
  intros R E1 E3 E5 EW. destruct R. constructor; rewrite ?E1, ?E3, ?E5; auto.
  destruct EW as [[E2 E4]|[E2 E4]]; rewrite E2, E4; [auto|exact I].
Qed.

Lemma existsb_filter_ne l d d0 :
  existsb (String.eqb d0) (filter (fun x => negb (String.eqb x d)) l) = (existsb (String.eqb d0) l && negb (String.eqb d0 d))%bool.
Proof.
  induction l as [|x l IH]; simpl; auto.
  destruct (String.eqb_spec x d) as [->|N]; simpl; rewrite IH.
  - destruct (String.eqb d0 d), (existsb (String.eqb d0) l); reflexivity.
  - destruct (String.eqb_spec d0 x) as [->|]; simpl; auto. apply String.eqb_neq in N. rewrite N. reflexivity.
Qed.

(* rmdir removes only an empty directory, and none of the pairs lives there *)
Lemma R2g_rmdir st h H L d h' : R2g st h H L -> sst h' = run_sprim (sst h) (SRmdir d) -> swr h' = swr h -> R2g st h' H L.
Proof.
  intros R ES EW. cbn [run_sprim] in ES. destruct (sdir_empty (sst h) d) eqn:EMP; [|apply (R2g_same st h H L); auto].
  destruct (R2g_elim R) as [Nk [Ni Ex]].
  apply R2g_intro; rewrite ?ES, ?EW; auto; try apply R. intros x Ix. destruct (Ex x Ix) as [[F [D T]] Lt]. split; [split; [exact F|split; [|exact T]]|exact Lt].
  unfold shas_dir in *. cbn [sdirs]. rewrite existsb_filter_ne, D. apply negb_true_iff, String.eqb_neq. intro X.
  apply negb_true_iff, not_true_iff_false in EMP. apply EMP, existsb_exists. exists (fst x). split; [apply (L_in_file R _ Ix)|].
  rewrite <- X. apply String.eqb_refl.
Qed.

Lemma shas_dir_app s d d0 : shas_dir {| sdirs := sdirs s ++ [d]; sfiles := sfiles s |} d0 = (shas_dir s d0 || String.eqb d0 d)%bool.
Proof. unfold shas_dir. simpl. rewrite existsb_app. simpl. rewrite orb_false_r. reflexivity. Qed.
Lemma mkdir_files s d : sfiles (run_sprim s (SMkdir d)) = sfiles s.
Proof. simpl. destruct (shas_dir s d); reflexivity. Qed.
Lemma mkdir_dir_mono s d d0 : shas_dir s d0 = true -> shas_dir (run_sprim s (SMkdir d)) d0 = true.
Proof. intros H. simpl. destruct (shas_dir s d) eqn:E; auto. rewrite shas_dir_app, H. reflexivity. Qed.
Lemma mkdir_dir_self s d : shas_dir (run_sprim s (SMkdir d)) d = true.
Proof. simpl. destruct (shas_dir s d) eqn:E; auto. rewrite shas_dir_app, String.eqb_refl. apply orb_true_r. Qed.
Lemma mkdir_noop s d : shas_dir s d = true -> run_sprim s (SMkdir d) = s.
Proof. intros H. simpl. rewrite H. reflexivity. Qed.
Lemma shas_files s s' k : sfiles s = sfiles s' -> shas s k = shas s' k.
Proof. unfold shas, sget. intros E. rewrite E. reflexivity. Qed.
Lemma create_fresh s k now : ~ In k (keys s) ->
  run_sprim s (SCreate k now) = {| sdirs := sdirs s; sfiles := sfiles s ++ [(k, empty_file now)] |}.
Proof. intros N. simpl. apply shas_false in N. rewrite N. reflexivity. Qed.
Lemma create_noop s k now : In k (keys s) -> run_sprim s (SCreate k now) = s.
Proof. intros I. simpl. apply shas_true in I. rewrite I. reflexivity. Qed.
Lemma keys_files s s' : sfiles s = sfiles s' -> keys s = keys s'.
Proof. unfold keys. intros E. rewrite E. reflexivity. Qed.
Lemma run_sprims_app s a b : run_sprims s (a ++ b) = run_sprims (run_sprims s a) b.
Proof. unfold run_sprims. apply fold_left_app. Qed.

Lemma last_opt_nil {A} : @last_opt A [] = None.  Proof. reflexivity. Qed.
Lemma last_opt_snoc {A} (l : list A) x : last_opt (l ++ [x]) = Some x.
Proof. unfold last_opt. apply last_some_snoc. Qed.
Lemma last_opt_cons {A} (x : A) l : exists y, last_opt (x :: l) = Some y /\ In y (x :: l).
Proof.
  revert x. induction l as [|z l IH]; intros x. { exists x. simpl. auto. }
  destruct (IH z) as [y [Hy Iy]]. exists y. split; [exact Hy | right; exact Iy].
Qed.
Lemma last_opt_none {A} (l : list A) : last_opt l = None -> l = [].
Proof. destruct l as [|a l]; auto. destruct (last_opt_cons a l) as [y [Hy _]]. congruence. Qed.

Lemma frun_add st e a its p now : frun st e a -> p_req p = a_req a ->
  frun st (fst e, {| items := its ++ [Rec p]; ftail := TNone; mtime := now |}) (add_status p now a).
Proof.
  intros [F1 [F2 [F3 [_ [_ [_ F7]]]]]] Ep. unfold frun. cbn [fst snd add_status a_dag a_stamp a_req a_sts a_mtime ftail mtime].
  rewrite parse_rec_snoc, last_opt_snoc. repeat split; auto. apply Forall_app. auto.
Qed.

Definition avoids (k : skey) (p : sprim) : Prop :=
  match p with SUnlink k1 => k1 <> k | SRename k1 k2 => k1 <> k /\ k2 <> k | _ => True end.
Lemma strack_fd_keep k p : avoids k p -> strack_fd (Some k) p = Some k.
Proof.
  destruct p; simpl; auto.
  - intros N. apply skey_eqb_neq in N. rewrite N. reflexivity.
  - intros [N1 N2]. apply skey_eqb_neq in N1, N2. rewrite N1, N2. reflexivity.
Qed.
Lemma strack_wr_none ps : strack_wr None ps = None.  Proof. reflexivity. Qed.
Lemma strack_wr_keep w ps : (forall k, sw_fd w = Some k -> Forall (avoids k) ps) -> strack_wr (Some w) ps = Some w.
Proof.
  intros A. unfold strack_wr. destruct w as [key fd rq]. cbn [sw_key sw_fd sw_req] in *. f_equal. f_equal.
  destruct fd as [k|].
  - specialize (A k eq_refl). induction A as [|p ps Ap _ IH]; cbn [fold_left]; auto. rewrite strack_fd_keep; auto.
  - clear A. induction ps as [|p ps IH]; cbn [fold_left]; auto.
Qed.
Lemma strack_appends k now cs fd : fold_left strack_fd (map (fun c => SAppend k c now) cs) fd = fd.
Proof. induction cs; simpl; auto. destruct fd; simpl; auto. Qed.
Lemma wr_ok_off st h H L d ps (L' : pairing) : R2g st h H L -> wr_off h d = true ->
  Forall (fun p => forall k, In k (keys (sst h)) -> k_dag k <> d -> avoids k p) ps ->
  (forall x, In x L -> k_dag (kof x) <> d -> In x L') ->
  wr_ok L' (strack_wr (swr h) ps) (h_cur H).
Proof.
  intros R O A K. unfold wr_off in O. destruct (swr h) as [w|] eqn:EW; [|rewrite (wr_none R EW); exact I].
  destruct (wr_pair R w EW) as [e0 [a0 [I0 [E1 [EC [E3 [W1 W2]]]]]]].
  apply negb_true_iff, String.eqb_neq in O. rewrite <- E1 in O. rewrite EC, strack_wr_keep.
  - apply (wr_ok_intro L' w e0 a0); auto.
  - intros k Ek. rewrite W1, <- E1 in Ek. inversion Ek; subst k. eapply Forall_impl; [|exact A]. intros p Ap. apply Ap; auto.
    rewrite <- (L_keys R). apply (in_map kof L (e0, a0) I0).
Qed.

Section F.
Variable kname : skey -> string.
Variable kpath : skey -> string.

Lemma sim_open h H L seen d stamp req now :
  R2 h H L -> incl (keys (sst h)) seen -> op_okb h seen (OOpen d stamp req now) = true ->
  exists L', R2 (sapply kname kpath h (OOpen d stamp req now)) (sp_apply H (OOpen d stamp req now)) L'.
Proof.
  intros R IS O. simpl in O. apply andb_prop in O. destruct O as [O1 _].
  set (k := mkkey d stamp (trunc8 req) false) in *. pose proof (seen_fresh _ _ k IS O1) as Nk.
  set (a := {| a_id := h_next H; a_dag := d; a_stamp := stamp; a_req := req; a_sts := []; a_mtime := now |}).
  exists (L ++ [((k, empty_file now), a)]).
  destruct (R2g_elim R) as [NK [NI Ex]].
  unfold sapply. cbn [sprims]. fold k. rewrite (sopen_fresh (sst h) k now Nk).
  cbn [run_sprims fold_left k_dag k mkkey].
  set (s1 := run_sprim (sst h) (SMkdir d)).
  assert (F1 : sfiles s1 = sfiles (sst h)) by apply mkdir_files.
  rewrite (create_fresh s1 k now) by (rewrite (keys_files s1 (sst h) F1); exact Nk).
  apply R2g_intro; cbn [sst swr sfiles sp_apply h_runs h_cur h_next]; rewrite ?map_app.
  - rewrite F1, (r_fst R). reflexivity.
  - apply Permutation_app_tail, (r_snd R).
  - apply (wr_ok_intro _ _ (k, empty_file now) a); auto. apply in_or_app. right. left. reflexivity.
  - apply NoDup_snoc; auto. rewrite (L_keys R). exact Nk.
  - apply NoDup_snoc; auto. intro I. apply in_map_iff in I. destruct I as [x [E I]]. destruct (Ex x I) as [_ Lt]. change (idof x = h_next H) in E. lia.
  - intros x I. apply in_app_or in I. destruct I as [I|[I|[]]].
    + destruct (Ex x I) as [[F [D T]] Lt]. split; [|lia]. split; auto. split; auto. apply mkdir_dir_mono, D.
    + subst x. split; [|unfold idof, a; simpl; lia]. split; [|split]; [|apply mkdir_dir_self|reflexivity].
      unfold frun. simpl. auto 10.
Qed.

Lemma sim_write h H L tag size now : R2 h H L ->
  exists L', R2 (sapply kname kpath h (OWrite tag size now)) (sp_apply H (OWrite tag size now)) L'.
Proof.
  intros R. unfold sapply. cbn [sprims sp_apply].
  destruct (swr h) as [w|] eqn:EW.
  2:{ rewrite (wr_none R EW). exists L. apply (R2g_same _ h H L); auto. }
  destruct (wr_pair R w EW) as [e0 [a0 [I0 [E1 [EC [E3 [W1 W2]]]]]]]. rewrite EC, W1.
  rewrite (get_run_unique _ _ a0 (r_ids R) (L_in_run R _ I0) eq_refl), <- E3.
  set (p := {| p_req := sw_req w; p_tag := tag; p_size := size |}).
  rewrite run_appends.
  exists (map (upd_pair (sw_key w) (appends (chunks_of p) now) (add_status p now)) L).
  pose proof (L_frun R _ I0) as FR.
  apply (R2_update true h H L (sw_key w) (a_id a0) _ _ _ _ e0 a0); auto using pres_add.
  - rewrite (appends_status _ _ _ (frun_tail _ _ FR)), <- E1. apply frun_add; auto.
  - left. rewrite EW, EC. split; auto. unfold strack_wr. rewrite strack_appends, W1. destruct w; simpl in *. subst. reflexivity.
Qed.

Section Glob.
Context {st : bool} {h : sstate} {H : hist} {L : pairing}.
Hypothesis R : R2g st h H L.

Lemma sglob_perm d pk :
  Permutation (sglob kname (sst h) d pk) (filter (fun e => String.eqb (k_dag (fst e)) d && in_patk pk (fst e)) (sfiles (sst h))).
Proof.
  unfold sglob. destruct (shas_dir (sst h) d) eqn:E.
  - rewrite <- filter_filter. apply Permutation_filter. apply isort_perm.
  - rewrite (filter_ext_in _ (fun _ => false)). { induction (sfiles (sst h)); simpl; auto. }
    intros e I. destruct (String.eqb (k_dag (fst e)) d) eqn:P; auto. apply String.eqb_eq in P.
    pose proof (r_dirs R e I) as Dd. congruence.
Qed.
Lemma sglob_member d e : In e (sglob kname (sst h) d PAll) <-> In e (sfiles (sst h)) /\ k_dag (fst e) = d.
Proof.
  rewrite sglob_iff. split. { tauto. } intros [I Q]. pose proof (r_dirs R e I) as D. rewrite Q in D.
  unfold in_patk. rewrite (r_plain R e I). auto.
Qed.
Lemma sglob_keys_nodup d pk : NoDup (map fst (sglob kname (sst h) d pk)).
Proof.
  apply (Permutation_NoDup (Permutation_map fst (Permutation_sym (sglob_perm d pk)))).
  apply NoDup_map_filter, (r_keys R).
Qed.
Lemma sglob_sel d (P : sent -> bool) e : In e (sfiles (sst h)) ->
  existsb (fun k => skey_eqb k (fst e)) (map fst (filter P (sglob kname (sst h) d PAll))) = (String.eqb (k_dag (fst e)) d && P e)%bool.
Proof.
  intros Ie. apply eq_true_iff_eq. rewrite existsb_key, andb_true_iff, String.eqb_eq. split.
  - intros I. apply in_map_iff in I. destruct I as [e' [E I]]. apply filter_In in I. destruct I as [Ig Pe].
    apply (sglob_member d e') in Ig. destruct Ig as [If Dg].
    assert (e' = e) by (apply (NoDup_map_inj fst (sfiles (sst h))); auto; apply (r_keys R)). subst. auto.
  - intros [Dg Pe]. apply in_map. apply filter_In. split; auto. apply (sglob_member d e). auto.
Qed.
End Glob.

Definition reqP (req : string) (e : sent) : bool :=
  match parse (snd e) with Some pl => String.eqb (p_req pl) req | None => false end.
Definition pick_first (l : list sent) : sfres :=
  match l with [] => SFNone | e :: _ => match parse (snd e) with Some pl => SFFound (fst e) pl | None => SFNone end end.
Lemma sfind_in_eq l req : sfind_in kpath l req =
  if String.eqb req "" then SFNone
  else pick_first (filter (reqP req) (rev (isort (fun x y : sent => String.ltb (kpath (fst x)) (kpath (fst y))) l))).
Proof. reflexivity. Qed.

Lemma is_run_iff d req a : is_run d req a = true <-> a_dag a = d /\ a_req a = req /\ has_status a = true.
Proof. unfold is_run. rewrite !andb_true_iff, !String.eqb_eq. tauto. Qed.
Lemma cand_run st e a d req : frun st e a -> k_dag (fst e) = d -> reqP req e = is_run d req a.
Proof.
  intros F Q. unfold is_run, reqP. rewrite <- (frun_dag _ _ _ F), Q, String.eqb_refl, (frun_parse _ _ _ F).
  pose proof (frun_reqs _ _ _ F) as Rq. destruct (a_sts a) as [|p0 l0]. { rewrite andb_false_r. reflexivity. }
  destruct (last_opt_cons p0 l0) as [y [Hy Iy]]. rewrite Hy, andb_true_r.
  rewrite Forall_forall in Rq. rewrite (Rq y Iy). reflexivity.
Qed.
Lemma find_is_run H d req a : hist_okb H = true -> NoDup (map a_id (h_runs H)) -> In a (h_runs H) -> is_run d req a = true ->
  find (is_run d req) (h_runs H) = Some a.
Proof.
  intros O N Ia Ra. apply find_unique; auto. intros b Ib Rb. apply is_run_iff in Ra, Rb.
  apply (hist_ok_prop H); auto; [|left]; intuition congruence.
Qed.
Lemma sp_find_own H a : hist_okb H = true -> NoDup (map a_id (h_runs H)) -> In a (h_runs H) -> a_req a <> "" ->
  sp_find H (a_dag a) (a_req a) = last_opt (a_sts a).
Proof.
  intros O N Ia Nr. unfold sp_find. apply String.eqb_neq in Nr. rewrite Nr.
  destruct (find (is_run (a_dag a) (a_req a)) (h_runs H)) as [b|] eqn:F.
  - apply find_some in F. destruct F as [Ib Rb]. apply is_run_iff in Rb.
    replace b with a; [reflexivity|]. apply (hist_ok_prop H); auto; [|left]; intuition congruence.
  - pose proof (find_none _ _ F a Ia) as X. unfold is_run in X. rewrite !String.eqb_refl in X. destruct (a_sts a); [reflexivity|discriminate].
Qed.

Lemma find_refines_pair st h H L d req : R2g st h H L -> hist_okb H = true ->
  match sq_find kname kpath (sst h) d req with
  | SFFound k p => req <> "" /\ exists e a, In (e, a) L /\ fst e = k /\ parse (snd e) = Some p /\ k_dag k = d
                                          /\ find (is_run d req) (h_runs H) = Some a
  | SFNone => req = "" \/ find (is_run d req) (h_runs H) = None
  end.
Proof.
  intros R O. unfold sq_find. rewrite sfind_in_eq. destruct (String.eqb_spec req "") as [|Er]; [auto|].
  set (l' := rev (isort (fun x y : sent => String.ltb (kpath (fst x)) (kpath (fst y))) (sglob kname (sst h) d PAll))).
  (* whichever candidate comes first in l', its run passes the specification's test, and that test picks one run at most *)
  assert (IL : forall e, In e l' <-> In e (sfiles (sst h)) /\ k_dag (fst e) = d).
  { intros e. unfold l'. rewrite <- in_rev, <- (sglob_member R d e). split; apply Permutation_in; [|apply Permutation_sym]; apply isort_perm. }
  destruct (filter (reqP req) l') as [|e r] eqn:FP; unfold pick_first.
  - right. destruct (find (is_run d req) (h_runs H)) as [a|] eqn:Ff; auto. exfalso.
    apply find_some in Ff. destruct Ff as [Ia Ra]. destruct (run_in_L R a Ia) as [e Le].
    assert (De : k_dag (fst e) = d). { rewrite (frun_dag _ e a (L_frun R _ Le)). apply is_run_iff in Ra. apply Ra. }
    assert (X : In e (filter (reqP req) l')).
    { apply filter_In. split; [apply IL; split; [apply (L_in_file R _ Le)|exact De]|]. rewrite (cand_run _ e a d req (L_frun R _ Le) De). exact Ra. }
    rewrite FP in X. destruct X.
  - assert (Ie : In e (filter (reqP req) l')) by (rewrite FP; left; reflexivity). apply filter_In in Ie. destruct Ie as [Ie Pe].
    apply IL in Ie. destruct Ie as [Fe De]. destruct (file_in_L R e Fe) as [a La].
    pose proof Pe as Pe'. unfold reqP in Pe'. destruct (parse (snd e)) as [pl|] eqn:Ep; [|discriminate].
    split; auto. exists e, a. repeat split; auto.
    rewrite (cand_run _ e a d req (L_frun R _ La) De) in Pe. apply find_is_run; auto. { apply (r_ids R). } apply (L_in_run R _ La).
Qed.

Definition fres_payload (r : sfres) : option payload := match r with SFFound _ p => Some p | SFNone => None end.
Theorem find_refines st h H L d req : R2g st h H L -> hist_okb H = true ->
  fres_payload (sq_find kname kpath (sst h) d req) = sp_find H d req.
Proof.
  intros R O. pose proof (find_refines_pair _ h H L d req R O) as F. unfold sp_find.
  destruct (sq_find kname kpath (sst h) d req) as [|k p]; simpl.
  - destruct F as [F|F]. { subst. reflexivity. } rewrite F. destruct (String.eqb req ""); reflexivity.
  - destruct F as [Nr [e [a [I [E1 [E2 [E3 E4]]]]]]]. apply String.eqb_neq in Nr. rewrite Nr, E4.
    rewrite <- (frun_parse _ e a (L_frun R _ I)). auto.
Qed.

(* the status cache: soundness is all the queries need *)
Definition load_pure (s : sfs) (k : skey) : option payload := match sget s k with Some f => parse f | None => None end.
Definition cache_sound (c : scache) (s : sfs) : Prop :=
  forall k e f, scache_get c k = Some e -> sget s k = Some f -> c_size e = fsize f -> parse f = Some (c_data e).

Lemma cache_sound_nil s : cache_sound [] s.
Proof. intros k e f G. discriminate. Qed.

Lemma sload_latest_sound c s k : cache_sound c s ->
  snd (sload_latest c s k) = load_pure s k /\ cache_sound (fst (sload_latest c s k)) s.
Proof.
  intros CS. unfold sload_latest, load_pure. destruct (sget s k) as [f|] eqn:G; simpl; auto.
  assert (PUT : forall p, parse f = Some p -> cache_sound (scache_put c k {| c_data := p; c_size := fsize f; c_mt := mtsec f |}) s).
  { intros p Pp k' e f' Ge Gf Es. rewrite scache_get_put in Ge. destruct (skey_eqb_spec k' k) as [->|]; [|eapply CS; eauto].
    inversion Ge; subst. simpl. congruence. }
  destruct (scache_get c k) as [e|] eqn:Ge.
  - destruct ((c_mt e <? mtsec f)%Z || negb (c_size e =? fsize f)%Z)%bool eqn:St.
    + destruct (parse f) eqn:Pf; simpl; auto.
    + apply orb_false_iff in St. destruct St as [_ St]. apply negb_false_iff in St. apply Z.eqb_eq in St.
      split; auto. symmetry. eapply CS; eauto.
  - destruct (parse f) eqn:Pf; simpl; auto.
Qed.

Definition opt_list {A} (o : option A) : list A := match o with Some x => [x] | None => [] end.
Definition loads (s : sfs) (l : list sent) : list payload := flat_map (fun e => opt_list (load_pure s (fst e))) l.
Lemma sload_first_sound s l : forall c, cache_sound c s ->
  snd (sload_first c s l) = match loads s l with [] => LNoData | p :: _ => LOk p end /\ cache_sound (fst (sload_first c s l)) s.
Proof.
  unfold loads. induction l as [|e l IH]; intros c CS; simpl; auto.
  destruct (sload_latest_sound c s (fst e) CS) as [E CS'].
  destruct (sload_latest c s (fst e)) as [c' [p|]]; simpl in *; rewrite <- E; simpl; auto.
Qed.
Lemma sload_upto_sound s l : forall n c, cache_sound c s ->
  snd (sload_upto c s l n) = firstn n (loads s l) /\ cache_sound (fst (sload_upto c s l n)) s.
Proof.
  unfold loads. induction l as [|e l IH]; intros n c CS; simpl. { rewrite firstn_nil. auto. }
  destruct n as [|n']; simpl; auto.
  destruct (sload_latest_sound c s (fst e) CS) as [E CS'].
  destruct (sload_latest c s (fst e)) as [c' [p|]]; simpl in *; rewrite <- E; simpl.
  - destruct (IH n' c' CS') as [E2 CS2]. destruct (sload_upto c' s l n') as [c'' ps]; simpl in *.
    split; [f_equal; exact E2 | exact CS2].
  - apply (IH (S n')); auto.
Qed.

(* the listing the readers walk through: compacted originals dropped, newest first (filterLatest with n = all) *)
Definition listing (s : sfs) (d : string) (pk : patk) : list sent := sort_desc sts_of (sdrop_compacted (sglob kname s d pk)).
Lemma filter_len_le {A} (f : A -> bool) l : (List.length (filter f l) <= List.length l)%nat.
Proof. induction l as [|x l IH]; simpl; auto. destruct (f x); simpl; lia. Qed.
Lemma sfilter_latest_all l : sfilter_latest l (List.length l) = sort_desc sts_of (sdrop_compacted l).
Proof.
  unfold sfilter_latest. rewrite (sort_desc_map (fun e => (sts_of e, e)) fst), map_map. rewrite map_id.
  apply firstn_all2. rewrite (Permutation_length (sort_desc_perm sts_of (sdrop_compacted l))). apply filter_len_le.
Qed.
Lemma listing_in s d pk e : In e (listing s d pk) -> In e (sglob kname s d pk).
Proof. unfold listing, sdrop_compacted. intros I. apply (Permutation_in _ (sort_desc_perm _ _)), filter_In in I. apply I. Qed.

Definition pq_latest (s : sfs) (d : string) (day : option string) : lres :=
  match loads s (listing s d (PLatest day)) with [] => LNoData | p :: _ => LOk p end.
Definition pq_recent (s : sfs) (d : string) (n : nat) : list payload := firstn n (loads s (listing s d PAll)).
Lemma sq_latest_pure c s d day : cache_sound c s -> snd (sq_latest kname c s d day) = pq_latest s d day.
Proof.
  intros CS. unfold sq_latest, slatest_of, pq_latest, listing. destruct (sglob kname s d (PLatest day)) as [|e l] eqn:G; [reflexivity|].
  rewrite sfilter_latest_all. apply sload_first_sound, CS.
Qed.
Lemma sq_recent_pure c s d n : cache_sound c s -> snd (sq_recent kname c s d n) = pq_recent s d n.
Proof.
  intros CS. unfold sq_recent, srecent_of, pq_recent, listing. destruct (sglob kname s d PAll) as [|e l] eqn:G. { rewrite firstn_nil. reflexivity. }
  rewrite sfilter_latest_all. apply sload_upto_sound, CS.
Qed.

Lemma sdrop_id l : (forall e m, In e l -> In m l -> k_c (fst e) = false -> twin (fst e) = fst m -> False) -> sdrop_compacted l = l.
Proof.
  intros Hn. unfold sdrop_compacted. transitivity (filter (fun _ : sent => true) l); [|apply filter_true]. apply filter_ext_in. intros e Ie.
  unfold sdropped. destruct (k_c (fst e)) eqn:C; [reflexivity|].
  match goal with |- negb ?b = true => destruct b eqn:X end; [|reflexivity]. exfalso.
  apply existsb_exists in X. destruct X as [m [Im E]]. apply skey_eqb_eq in E. exact (Hn e m Ie Im C E).
Qed.

Definition stl (a : arun) : list payload := opt_list (last_opt (a_sts a)).
Lemma stl_status a : has_status a = true -> exists p, last_opt (a_sts a) = Some p /\ stl a = [p].
Proof. unfold has_status, stl. destruct (a_sts a) as [|x l]; [discriminate|]. intros _. destruct (last_opt_cons x l) as [y [Hy _]]. rewrite Hy. eauto. Qed.
Lemma flat_stl_filter l : flat_map stl l = flat_map stl (filter has_status l).
Proof.
  induction l as [|a l IH]; simpl; auto. destruct (has_status a) eqn:E; simpl; rewrite IH; auto.
  unfold has_status, stl in *. destruct (a_sts a); [reflexivity|discriminate].
Qed.
Lemma firstn_flat_stl l n : (forall a, In a l -> has_status a = true) -> firstn n (flat_map stl l) = flat_map stl (firstn n l).
Proof.
  revert n. induction l as [|a l IH]; intros n Hs; simpl. { rewrite !firstn_nil. reflexivity. }
  destruct (stl_status a (Hs a (or_introl eq_refl))) as [p [_ E]]. rewrite E. destruct n; simpl; auto.
  rewrite E. simpl. f_equal. apply IH. intros; apply Hs; simpl; auto.
Qed.
Lemma newest_status H d day a : In a (newest_first (filter has_status (runs_of H d day))) -> has_status a = true.
Proof. intros Ia. eapply Permutation_in in Ia; [|apply sort_desc_perm]. apply filter_In in Ia. apply Ia. Qed.

Definition dagday (d : string) (day : option string) (k : skey) : bool :=
  String.eqb (k_dag k) d && in_patk (PLatest day) k.

(* ordering: the files of one DAG sorted by what the regexp sees and its runs sorted by start stamp are the two projections
   of one list of pairs *)
Section Order.
Variables (st : bool) (h : sstate) (H : hist) (L : pairing).
Hypothesis R : R2g st h H L.
Hypothesis O : hist_okb H = true.
Variables (d : string) (day : option string).

Let Lf := filter (fun x : sent * arun => dagday d day (fst (fst x))) L.
Let S := sort_desc (fun x : sent * arun => a_stamp (snd x)) Lf.

Lemma Lf_in x : In x Lf -> In x L /\ k_dag (fst (fst x)) = d.
Proof. unfold Lf. intros I. apply filter_In in I. destruct I as [I P]. apply andb_prop in P. destruct P as [P _]. apply String.eqb_eq in P. auto. Qed.
Lemma Lf_sts x : In x Lf -> sts_of (fst x) = a_stamp (snd x).
Proof. intros I. destruct (Lf_in x I) as [Lx _]. apply (frun_stamp _ _ _ (L_frun R x Lx)). Qed.
Lemma Lf_stamps_nodup : NoDup (map (fun x : sent * arun => a_stamp (snd x)) Lf).
Proof.
  apply NoDup_map_of_inj. { apply NoDup_filter, (NoDup_map_inv kof), (R2g_elim R). }
  intros x y Ix Iy E. destruct (Lf_in x Ix) as [Lx Dx], (Lf_in y Iy) as [Ly Dy].
  apply (L_clash_unique R _ _ O); auto. rewrite <- (frun_dag _ _ _ (L_frun R x Lx)), <- (frun_dag _ _ _ (L_frun R y Ly)). congruence.
Qed.

Lemma glob_sorted : sort_desc sts_of (sglob kname (sst h) d (PLatest day)) = map fst S.
Proof.
  assert (PM : Permutation (map fst Lf) (sglob kname (sst h) d (PLatest day))).
  { apply Permutation_sym. eapply Permutation_trans; [apply (sglob_perm R _ _)|]. rewrite <- (r_fst R), filter_map_comm. apply Permutation_refl. }
  rewrite <- (sort_desc_perm_inv sts_of (map fst Lf) _ PM).
  2:{ rewrite map_map, (map_ext_in _ _ _ Lf_sts). apply Lf_stamps_nodup. }
  rewrite sort_desc_map. f_equal. unfold S. apply sort_desc_ext.
  intros x y Ix Iy. rewrite (Lf_sts x Ix), (Lf_sts y Iy). reflexivity.
Qed.
Lemma runs_sorted : newest_first (runs_of H d day) = map snd S.
Proof.
  unfold newest_first, S. rewrite <- sort_desc_map. symmetry. apply sort_desc_perm_inv; [|rewrite map_map; apply Lf_stamps_nodup].
  unfold Lf, runs_of. eapply Permutation_trans; [|apply Permutation_filter, (r_snd R)].
  rewrite filter_map_comm. apply Permutation_refl'. f_equal. apply filter_ext_in.
  intros x I. pose proof (L_frun R x I) as F. unfold dagday, in_patk.
  rewrite (r_plain R (fst x) (L_in_file R x I)), (frun_dag _ _ _ F), (frun_stamp _ _ _ F). reflexivity.
Qed.
Lemma S_parse x : In x S -> load_pure (sst h) (fst (fst x)) = last_opt (a_sts (snd x)).
Proof.
  unfold S. intros I. apply (Permutation_in _ (sort_desc_perm _ _)), Lf_in in I. destruct I as [I _].
  destruct x as [e a]. unfold load_pure. cbn [fst snd]. rewrite (L_sget R e a I). apply (frun_parse _ _ _ (L_frun R _ I)).
Qed.
Lemma glob_nil : sglob kname (sst h) d (PLatest day) = [] <-> S = [].
Proof.
  rewrite <- (length_zero_iff_nil S), <- (map_length fst), <- glob_sorted, (Permutation_length (sort_desc_perm _ _)).
  symmetry. apply length_zero_iff_nil.
Qed.
(* in a state related to a run map with distinct start stamps no file is listed next to its compacted twin *)
Lemma sdrop_glob_id pk : sdrop_compacted (sglob kname (sst h) d pk) = sglob kname (sst h) d pk.
Proof.
  apply sdrop_id. intros e m Ie Im C T.
  apply sglob_iff in Ie, Im. destruct Ie as [_ [Ie _]], Im as [_ [Im _]].
  destruct (file_in_L R e Ie) as [ae Le], (file_in_L R m Im) as [am Lm].
  pose proof (L_frun R _ Le) as Fe. pose proof (L_frun R _ Lm) as Fm. cbn [fst snd] in Fe, Fm.
  assert (E : (e, ae) = (m, am)).
  { apply (L_clash_unique R _ _ O); auto; cbn [snd]; [|right].
    - rewrite <- (frun_dag _ _ _ Fe), <- (frun_dag _ _ _ Fm), <- T. reflexivity.
    - rewrite <- (frun_stamp _ _ _ Fe), <- (frun_stamp _ _ _ Fm), <- T. reflexivity. }
  inversion E. subst m. rewrite <- T in C. discriminate.
Qed.
Lemma loads_listing : loads (sst h) (listing (sst h) d (PLatest day)) = flat_map stl (newest_first (filter has_status (runs_of H d day))).
Proof.
  unfold listing. rewrite sdrop_glob_id, glob_sorted.
  assert (NF : newest_first (filter has_status (runs_of H d day)) = filter has_status (newest_first (runs_of H d day)))
    by (unfold newest_first; symmetry; apply sort_desc_filter).
  rewrite NF, runs_sorted. rewrite <- flat_stl_filter.
  unfold loads. rewrite !flat_map_concat_map, !map_map. f_equal. apply map_ext_in. intros x Ix.
  rewrite (S_parse x Ix). reflexivity.
Qed.
End Order.

Theorem latest_refines st h H L c d day : R2g st h H L -> hist_okb H = true -> cache_sound c (sst h) ->
  snd (sq_latest kname c (sst h) d day) = sp_latest H d day.
Proof.
  intros R O CS. rewrite (sq_latest_pure c _ d day CS). unfold pq_latest, sp_latest. rewrite (loads_listing st h H L R O d day).
  pose proof (newest_status H d day) as HS.
  destruct (newest_first (filter has_status (runs_of H d day))) as [|a r]; simpl; auto.
  destruct (stl_status a (HS a (or_introl eq_refl))) as [p [E1 E2]]. rewrite E2, E1. reflexivity.
Qed.
Theorem recent_refines st h H L c d n : R2g st h H L -> hist_okb H = true -> cache_sound c (sst h) ->
  snd (sq_recent kname c (sst h) d n) = sp_recent H d n.
Proof.
  intros R O CS. rewrite (sq_recent_pure c _ d n CS). unfold pq_recent, sp_recent.
  change (listing (sst h) d PAll) with (listing (sst h) d (PLatest None)). rewrite (loads_listing st h H L R O d None). apply firstn_flat_stl, newest_status.
Qed.

Lemma replace_perm (L : pairing) k x0 (g : arun -> arun) :
  NoDup (map kof L) -> In x0 L -> kof x0 = k ->
  Permutation (map snd (filter (fun x => negb (skey_eqb k (kof x))) L) ++ [g (snd x0)])
              (map (fun x => if skey_eqb k (kof x) then g (snd x) else snd x) L).
Proof.
  induction L as [|x L IH]; simpl; intros N I E; [tauto|]. inversion N as [|? ? Hn Hd]; subst.
  destruct (skey_eqb_spec (kof x0) (kof x)) as [Ex|Ex]; simpl.
  - assert (x0 = x) by (destruct I as [I|I]; auto; exfalso; apply Hn; rewrite <- Ex; apply (in_map kof), I). subst x0.
    assert (NF : forall y, In y L -> skey_eqb (kof x) (kof y) = false).
    { intros y Iy. apply skey_eqb_neq. intro E. apply Hn. rewrite E. apply (in_map kof), Iy. }
    rewrite (filter_ext_in _ (fun _ => true)), filter_true by (intros y Iy; rewrite NF; auto).
    rewrite (map_ext_in (fun y : sent * arun => if skey_eqb (kof x) (kof y) then g (snd y) else snd y) snd) by (intros y Iy; rewrite NF; auto).
    apply Permutation_sym, Permutation_cons_append.
  - apply perm_skip, IH; auto. destruct I as [I|I]; auto. subst. contradiction.
Qed.

Lemma upd_key_app k g l1 l2 : upd_key k g (l1 ++ l2) = upd_key k g l1 ++ upd_key k g l2.
Proof. unfold upd_key. apply map_app. Qed.
Lemma upd_key_single k g f : upd_key k g [(k, f)] = [(k, g f)].
Proof. unfold upd_key. simpl. rewrite skey_eqb_refl. reflexivity. Qed.
Lemma twin_neq k : k_c k = false -> k <> twin k.
Proof. intros C X. rewrite X in C. discriminate. Qed.

Lemma close_run s k pl now : ~ In (twin k) (keys s) -> ~ In (tmpk (twin k)) (keys s) -> shas_dir s (k_dag (twin k)) = true ->
  run_sprims s ([SUnlink (tmpk (twin k)); SMkdir (k_dag (twin k)); SCreate (tmpk (twin k)) now]
                ++ map (fun c => SAppend (tmpk (twin k)) c now) (chunks_of pl) ++ [SRename (tmpk (twin k)) (twin k); SUnlink k])
  = run_sprims {| sdirs := sdirs s; sfiles := sfiles s ++ [(twin k, {| items := [Rec pl]; ftail := TNone; mtime := now |})] |} [SUnlink k].
Proof.
  intros Nkc Nkt Dk. set (kc := twin k) in *. set (kt := tmpk kc) in *.
  rewrite run_sprims_app. cbn [run_sprims fold_left].
  rewrite (unlink_absent _ _ Nkt), (mkdir_noop _ _ Dk), (create_fresh _ kt now Nkt).
  fold (run_sprims {| sdirs := sdirs s; sfiles := sfiles s ++ [(kt, empty_file now)] |}
          (map (fun c => SAppend kt c now) (chunks_of pl) ++ [SRename kt kc; SUnlink k])).
  rewrite run_sprims_app, run_appends. cbn [sfiles sdirs].
  rewrite upd_key_app, (upd_key_absent kt _ (sfiles s)) by exact Nkt. rewrite upd_key_single.
  rewrite appends_status by reflexivity.
  cbn [run_sprims fold_left]. rewrite rename_last; auto. apply tmpk_neq. reflexivity.
Qed.

Lemma sim_close h H L seen now :
  R2 h H L -> incl (keys (sst h)) seen -> op_okb h seen (OClose now) = true ->
  exists L', R2 (sapply kname kpath h (OClose now)) (sp_apply H (OClose now)) L'.
Proof.
  intros R IS O. simpl in O. unfold sapply. cbn [sprims sp_apply].
  destruct (swr h) as [w|] eqn:EW.
  2:{ rewrite (wr_none R EW). exists L. exact R. }
  destruct (wr_pair R w EW) as [e0 [a0 [I0 [E1 [EC [E3 [W1 W2]]]]]]]. rewrite EC.
  pose proof (L_sget R e0 a0 I0) as G0. rewrite E1 in G0. rewrite G0.
  pose proof (L_frun R _ I0) as FR. cbn [fst snd] in FR.
  set (F := fun a : arun => match a_sts a with [] => a | _ :: _ => set_mtime now a end).
  destruct (parse (snd e0)) as [pl|] eqn:Pp.
  - (* compaction: the pair of the open file is replaced by (compacted copy, the run with its new age) at the end *)
    set (k := sw_key w) in *. set (kc := twin k).
    apply andb_prop in O. destruct O as [O _]. pose proof (seen_fresh _ _ kc IS O) as Nkc.
    assert (Dk : shas_dir (sst h) (k_dag kc) = true).
    { change (k_dag kc) with (k_dag k). rewrite <- E1. apply (r_dirs R), (L_in_file R _ I0). }
    assert (Nkt : ~ In (tmpk kc) (keys (sst h))) by (apply tmpk_absent, (r_plain R)).
    unfold kc. rewrite (close_run (sst h) k pl now Nkc Nkt Dk). fold kc.
    set (fc := {| items := [Rec pl]; ftail := TNone; mtime := now |}).
    cbn [run_sprims fold_left run_sprim sdirs sfiles]. rewrite filter_app. cbn [filter fst].
    rewrite (proj2 (skey_eqb_neq k kc) (twin_neq k W2)).
    set (L1 := filter (fun x => negb (skey_eqb k (kof x))) L).
    exists (L1 ++ [((kc, fc), F a0)]).
    destruct (R2g_elim R) as [NK [NI Ex]].
    assert (FA : F a0 = set_mtime now a0).
    { unfold F. destruct (a_sts a0) eqn:S0; [|reflexivity]. rewrite (frun_parse _ _ _ FR), S0 in Pp. discriminate. }
    assert (PS : Permutation (map snd (L1 ++ [((kc, fc), F a0)])) (upd_run (a_id a0) F (h_runs H))).
    { rewrite map_app.
      eapply Permutation_trans; [apply (replace_perm L k (e0, a0) F); auto|].
      eapply Permutation_trans; [|apply Permutation_map, (r_snd R)].
      unfold upd_run. rewrite map_map. apply Permutation_refl', map_ext_in. intros x Ix.
      rewrite (pair_pick R k (a_id a0) (e0, a0) I0 E1 eq_refl x Ix). reflexivity. }
    assert (PF : pres F). { intros a. unfold F. destruct (a_sts a); split; reflexivity. }
    apply R2g_intro; cbn [sst swr sfiles h_runs h_cur h_next]; auto.
    + rewrite map_app. f_equal. rewrite <- (r_fst R). symmetry. exact (filter_map_comm fst (fun e : sent => negb (skey_eqb k (fst e))) L).
    + exact I.
    + rewrite map_app. apply NoDup_snoc. { apply NoDup_map_filter, NK. }
      intro X. apply in_map_iff in X. destruct X as [x [Ek Ix]]. apply filter_In in Ix. destruct Ix as [Ix _].
      apply Nkc. rewrite <- (L_keys R). change kc with (kof (kc, fc, F a0)). rewrite <- Ek. apply in_map, Ix.
    + unfold idof. rewrite <- (map_map snd a_id). apply (Permutation_NoDup (Permutation_map a_id (Permutation_sym PS))).
      rewrite upd_run_ids by exact PF. apply (r_ids R).
    + intros x Ix. apply in_app_or in Ix. destruct Ix as [Ix|[Ix|[]]].
      * apply filter_In in Ix. apply (Ex x), Ix.
      * subst x. rewrite FA. destruct (Ex _ I0) as [_ Lt]. split; [|exact Lt]. split; [|split; [exact Dk|reflexivity]].
        destruct FR as [F1 [F2 [F3 [F4 [F5 [F6 F7]]]]]]. rewrite E1 in F1, F2, F3.
        unfold frun. cbn [fst snd set_mtime a_dag a_stamp a_req a_sts a_mtime]. rewrite <- F4, Pp. auto 10.
  - (* nothing to compact: the file has no parseable status *)
    exists L. apply (R2g_same true h H L); auto. apply upd_run_same. intros a Ia Ei.
    assert (a = a0) by (apply (run_unique R); auto; apply (L_in_run R _ I0)). subst a.
    rewrite (frun_parse _ _ _ FR) in Pp. apply last_opt_none in Pp. unfold F. rewrite Pp. reflexivity.
Qed.

(* writer.open + the status on an existing file: a torn tail (a crash state) is terminated first, so the status always becomes the
   file's last complete line *)
Lemma sopen_eq s k f now : sget s k = Some f ->
  sopen s k now = SMkdir (k_dag k) :: SCreate k now :: map (fun c => SAppend k c now) (match ftail f with TNone => [] | _ => [CNl] end).
Proof. intros G. unfold sopen. rewrite G. destruct (ftail f); reflexivity. Qed.
Lemma sopen_appends s k f p now : sget s k = Some f -> shas_dir s (k_dag k) = true ->
  let g := appends ((match ftail f with TNone => [] | _ => [CNl] end) ++ chunks_of p) now in
  run_sprims s (sopen s k now ++ map (fun c => SAppend k c now) (chunks_of p)) = {| sdirs := sdirs s; sfiles := upd_key k g (sfiles s) |}
  /\ (exists its, g f = {| items := its ++ [Rec p]; ftail := TNone; mtime := now |})
  /\ (forall fd, fold_left strack_fd (sopen s k now ++ map (fun c => SAppend k c now) (chunks_of p)) fd = fd).
Proof.
  intros G Dk.
  assert (Ik : In k (keys s)). { apply shas_true. unfold shas. rewrite G. reflexivity. }
  rewrite (sopen_eq s k f now G). set (pre := match ftail f with TNone => [] | _ => [CNl] end).
  cbn [app]. rewrite <- map_app. split; [|split].
  - cbn [run_sprims fold_left]. rewrite (mkdir_noop _ _ Dk), (create_noop _ k now Ik). apply run_appends.
  - exists (items (appends pre now f)). unfold appends. rewrite fold_left_app. apply appends_status.
    unfold pre. destruct (ftail f) eqn:T; cbn [fold_left]; [exact T| |]; unfold append_chunk; rewrite T; reflexivity.
  - intros fd. cbn [fold_left]. rewrite strack_appends. destruct fd; reflexivity.
Qed.

(* for any st: the crash states (ProofsCrash.v) need st = false *)
Lemma sim_update_g st h H L d req tag size now :
  R2g st h H L -> hist_okb H = true ->
  exists L', R2g st (sapply kname kpath h (OUpdate d req tag size now)) (sp_apply H (OUpdate d req tag size now)) L'.
Proof.
  intros R O. pose proof (find_refines_pair _ h H L d req R O) as F.
  unfold sapply. cbn [sprims sp_apply].
  destruct (sq_find kname kpath (sst h) d req) as [|k p] eqn:Q.
  - exists L. destruct F as [F|F].
    + subst req. exact R.
    + rewrite F. destruct (String.eqb req ""); exact R.
  - destruct F as [Nr [e [a [I [E1 [E2 [E3 E4]]]]]]]. apply String.eqb_neq in Nr. rewrite Nr, E4.
    set (p' := {| p_req := req; p_tag := tag; p_size := size |}).
    assert (Dk : shas_dir (sst h) (k_dag k) = true). { rewrite <- E1. apply (r_dirs R), (L_in_file R _ I). }
    assert (G0 : sget (sst h) k = Some (snd e)). { rewrite <- E1. apply (L_sget R e a I). }
    pose proof (sopen_appends (sst h) k (snd e) p' now G0 Dk) as SA. set (g := appends _ now) in SA.
    destruct SA as [RUN [[its GF] TRK]]. fold p'. rewrite RUN.
    exists (map (upd_pair k g (add_status p' now)) L).
    apply find_some in E4. destruct E4 as [Ia IR]. apply is_run_iff in IR.
    apply (R2_update st h H L k (a_id a) _ _ _ _ e a); auto using pres_add.
    + rewrite GF, <- E1. apply frun_add; [apply (L_frun R _ I)|]. symmetry. apply IR.
    + left. split; auto. destruct (swr h) as [w|]; [|reflexivity]. unfold strack_wr. rewrite TRK. destruct w; reflexivity.
Qed.

Definition dagold (d : string) (cutoff : Z) (e : sent) : bool := String.eqb (k_dag (fst e)) d && (mtime (snd e) <? cutoff)%Z.

Lemma removeold_files st h H L d cutoff : R2g st h H L ->
  sst (sapply kname kpath h (ORemoveOld d cutoff))
  = {| sdirs := sdirs (sst h); sfiles := filter (fun e => negb (dagold d cutoff e)) (sfiles (sst h)) |}.
Proof.
  intros R. unfold sapply. cbn [sprims sst]. rewrite <- (map_map fst SUnlink), run_unlinks. f_equal.
  apply filter_ext_in. intros e Ie. f_equal. exact (sglob_sel R d (fun e => (mtime (snd e) <? cutoff)%Z) e Ie).
Qed.

Lemma sim_removeold h H L seen d cutoff :
  R2 h H L -> op_okb h seen (ORemoveOld d cutoff) = true ->
  exists L', R2 (sapply kname kpath h (ORemoveOld d cutoff)) (sp_apply H (ORemoveOld d cutoff)) L'.
Proof.
  intros R O. simpl in O.
  exists (filter (fun x => negb (dagold d cutoff (fst x))) L).
  apply (R2g_filter true h H L); auto.
  - rewrite (removeold_files _ _ _ _ d cutoff R). reflexivity.
  - rewrite (removeold_files _ _ _ _ d cutoff R). rewrite <- (r_fst R).
    exact (filter_map_comm fst (fun e => negb (dagold d cutoff e)) L).
  - eapply Permutation_trans; [|apply Permutation_filter, (r_snd R)].
    rewrite filter_map_comm. apply Permutation_refl'. f_equal. apply filter_ext_in.
    intros x Ix. pose proof (L_frun R x Ix) as F. unfold dagold. rewrite (frun_dag _ _ _ F), (frun_mtime _ _ F). reflexivity.
  - (* the writer is on another DAG: its file stays and the descriptor is not touched *)
    unfold sapply. apply (wr_ok_off true h H L d); auto.
    + apply Forall_forall. intros p Ip k _ Nk. apply in_map_iff in Ip. destruct Ip as [e [Ep Ie]]. subst p.
      apply filter_In in Ie. destruct Ie as [Ie _]. apply sglob_iff in Ie. intro X. apply Nk. rewrite <- X. apply Ie.
    + intros x Ix Nk. apply filter_In. split; auto. unfold dagold. apply String.eqb_neq in Nk. unfold kof in Nk. rewrite Nk. reflexivity.
Qed.

Definition redag (d d' : string) : sent * arun -> sent * arun := mvsel d' (fun k => String.eqb (k_dag k) d).

Lemma rename_fresh h seen d d' e : incl (keys (sst h)) seen ->
  forallb (fun e => if String.eqb (k_dag (fst e)) d then negb (memk (rekey d' (fst e)) seen) else true) (sfiles (sst h)) = true ->
  In e (sfiles (sst h)) -> k_dag (fst e) = d -> ~ In (rekey d' (fst e)) (keys (sst h)).
Proof.
  intros IS O3 Ie De. rewrite forallb_forall in O3. specialize (O3 e Ie). rewrite De, String.eqb_refl in O3. apply (seen_fresh _ _ _ IS O3).
Qed.
Lemma rename_files st h H L d d' : R2g st h H L -> d <> d' ->
  (forall e, In e (sfiles (sst h)) -> k_dag (fst e) = d -> ~ In (rekey d' (fst e)) (keys (sst h))) ->
  run_sprims (sst h) ([SMkdir d'] ++ map (fun e : skey * file => SRename (fst e) (rekey d' (fst e))) (sglob kname (sst h) d PAll))
  = {| sdirs := sdirs (run_sprim (sst h) (SMkdir d'));
       sfiles := map (fun e : sent => if String.eqb (k_dag (fst e)) d then (rekey d' (fst e), snd e) else e) (sfiles (sst h)) |}.
Proof.
  intros R Nd FRESH. set (s1 := run_sprim (sst h) (SMkdir d')).
  assert (F1 : sfiles s1 = sfiles (sst h)) by apply mkdir_files.
  assert (GK : forall k, In k (map fst (sglob kname (sst h) d PAll)) -> (In k (keys s1) /\ k_dag k = d) /\ ~ In (rekey d' k) (keys s1)).
  { unfold keys. rewrite F1. intros k Ik. apply in_map_iff in Ik. destruct Ik as [e [<- Ie]]. apply (sglob_member R d e) in Ie.
    destruct Ie as [Ie De]. split; [split; [apply in_map, Ie|exact De]|apply FRESH; auto]. }
  cbn [app]. change (run_sprims (sst h) (SMkdir d' :: ?l)) with (run_sprims s1 l).
  rewrite <- (map_map fst (fun k => SRename k (rekey d' k))).
  rewrite (run_renames_gen d d' Nd _ s1 (sglob_keys_nodup R d PAll) (fun k Ik => proj1 (GK k Ik)) (fun k Ik => proj2 (GK k Ik))).
  unfold rekey_in. rewrite F1, (map_ext_in _ (fun e : sent => if String.eqb (k_dag (fst e)) d then (rekey d' (fst e), snd e) else e)).
  2:{ intros e Ie. rewrite <- (filter_true (sglob kname (sst h) d PAll)), (sglob_sel R d (fun _ => true) e Ie), andb_true_r. reflexivity. }
  reflexivity.
Qed.

Lemma sim_rename h H L seen d d' :
  R2 h H L -> incl (keys (sst h)) seen -> op_okb h seen (ORename d d') = true ->
  exists L', R2 (sapply kname kpath h (ORename d d')) (sp_apply H (ORename d d')) L'.
Proof.
  intros R IS O. simpl in O. apply andb_prop in O. destruct O as [O O3]. apply andb_prop in O. destruct O as [O1 O2].
  apply negb_true_iff in O1. apply String.eqb_neq in O1.
  unfold sapply. cbn [sprims sp_apply].
  destruct (shas_dir (sst h) d) eqn:Dd; cbv iota.
  2:{ (* no directory: no file and no run of d *)
    exists L. apply (R2g_same true h H L); auto; cbn [sst swr h_runs h_cur h_next].
    - rewrite <- (map_id (h_runs H)) at 2. apply map_ext_in. intros a Ia. destruct (run_in_L R a Ia) as [e Le].
      destruct (String.eqb (a_dag a) d) eqn:E; auto. apply String.eqb_eq in E. rewrite <- (frun_dag _ e a (L_frun R _ Le)) in E.
      pose proof (r_dirs R e (L_in_file R _ Le)) as Y. congruence.
    - left. split; auto. destruct (swr h) as [w|]; [|reflexivity]. apply strack_wr_keep. intros; constructor. }
  pose proof (rename_fresh h seen d d') as FRESH. specialize (fun e => FRESH e IS O3).
  set (rn := map (fun e : skey * file => SRename (fst e) (rekey d' (fst e))) (sglob kname (sst h) d PAll)).
  set (ps := [SMkdir d'] ++ rn ++ [SRmdir d]).
  unfold ps at 1. rewrite app_assoc, run_sprims_app. unfold rn at 1. rewrite (rename_files _ _ _ _ d d' R O1 FRESH).
  set (s1 := run_sprim (sst h) (SMkdir d')). set (s2 := {| sdirs := sdirs s1; sfiles := _ |}).
  exists (map (redag d d') L).
  (* s2 is the store after the renames: related by R2g_rekey; the rmdir that follows keeps that *)
  apply (R2g_rmdir true {| sst := s2; swr := strack_wr (swr h) ps; scch := scch h |} _ _ d); [|reflexivity|reflexivity].
  apply (R2g_rekey true h H L d d'); unfold s2; cbn [sst swr sfiles h_runs h_cur h_next]; auto.
  - intros x Ix Ed. apply String.eqb_eq in Ed. split; auto. apply (FRESH _ (L_in_file R x Ix) Ed).
  - rewrite <- (r_fst R), map_map. apply map_ext. intros x. unfold mvsel, mvd, kof.
    destruct (String.eqb (k_dag (fst (fst x))) d); reflexivity.
  - eapply Permutation_trans; [|apply Permutation_map, (r_snd R)]. rewrite map_map.
    apply Permutation_refl'. apply map_ext_in. intros x Ix. unfold mvsel, kof. rewrite (frun_dag _ _ _ (L_frun R x Ix)).
    destruct (String.eqb (a_dag (snd x)) d); reflexivity.
  - (* the writer is on another DAG *)
    apply (wr_ok_off true h H L d); auto.
    + unfold ps. apply Forall_forall. intros p Ip k Ik Nk. cbn [app In] in Ip. destruct Ip as [Ip|Ip]; [subst p; exact I|].
      apply in_app_or in Ip. destruct Ip as [Ip|[Ip|[]]]; [|subst p; exact I].
      apply in_map_iff in Ip. destruct Ip as [e [Ep Ie]]. subst p. apply (sglob_member R d e) in Ie. destruct Ie as [Ie De].
      split; intro X; subst k; [congruence|]. apply (FRESH e Ie De Ik).
    + intros x Ix Nk. apply String.eqb_neq in Nk. replace x with (redag d d' x) at 1; [apply in_map, Ix|].
      unfold redag, mvsel. rewrite Nk. reflexivity.
  - apply mkdir_dir_self.
  - intros x Ix Ed D. apply mkdir_dir_mono, D.
Qed.

(* Touch (os.Chtimes by the environment) *)
Definition touched (d stamp r8 : string) (a : arun) : bool :=
  String.eqb (a_dag a) d && String.eqb (a_stamp a) stamp && String.eqb (trunc8 (a_req a)) r8.

(* the touched file is the file of the touched run: when another file of that run exists, the premise says that the touched one does *)
Lemma touch_pick st h H L seen d stamp r8 c t x : R2g st h H L -> hist_okb H = true -> op_okb h seen (OTouch d stamp r8 c t) = true ->
  In x L -> skey_eqb (mkkey d stamp r8 c) (kof x) = touched d stamp r8 (snd x).
Proof.
  intros R O P Ix. set (k := mkkey d stamp r8 c) in *.
  assert (TP : forall y, In y L -> same_run_key d stamp r8 (kof y) = touched d stamp r8 (snd y)).
  { intros y Iy. destruct (L_frun R _ Iy) as [F1 [F2 [F3 _]]]. unfold same_run_key, touched, kof. rewrite F1, F2, F3. reflexivity. }
  assert (TK : forall y, In y L -> kof y = k -> touched d stamp r8 (snd y) = true).
  { intros y Iy Ky. rewrite <- (TP y Iy), Ky. unfold same_run_key, k. rewrite !String.eqb_refl. reflexivity. }
  destruct (skey_eqb_spec k (kof x)) as [E|N]. { symmetry. apply TK; auto. }
  destruct (touched d stamp r8 (snd x)) eqn:Tx; auto. exfalso. apply N.
  simpl in P. rewrite (proj2 (existsb_exists _ _)), orb_false_r in P.
  2:{ exists (fst x). split; [apply (L_in_file R x Ix)|]. rewrite <- Tx. apply (TP x Ix). }
  apply shas_true, in_map_iff in P. destruct P as [e0 [E0 I0]]. destruct (file_in_L R e0 I0) as [a0 L0].
  pose proof (TK _ L0 E0) as T0. cbn [snd] in T0. unfold touched in Tx, T0. rewrite !andb_true_iff, !String.eqb_eq in Tx, T0.
  assert (x = (e0, a0)) by (apply (L_clash_unique R _ _ O); auto; [|right]; cbn [snd]; intuition congruence).
  subst x. symmetry. exact E0.
Qed.

Lemma sim_touch h H L seen d stamp r8 c t :
  R2 h H L -> hist_okb H = true -> op_okb h seen (OTouch d stamp r8 c t) = true ->
  exists L', R2 (sapply kname kpath h (OTouch d stamp r8 c t)) (sp_apply H (OTouch d stamp r8 c t)) L'.
Proof.
  intros R O P. set (k := mkkey d stamp r8 c).
  exists (map (upd_pair k (set_mt t) (set_mtime t)) L).
  apply (R2g_upd true h H L k (touched d stamp r8)); auto using pres_mtime.
  - intros x Ix. apply (touch_pick true h H L seen d stamp r8 c t); auto.
  - intros x Ix Kx. destruct (L_frun R _ Ix) as [G1 [G2 [G3 [G4 [G5 [G6 G7]]]]]]. unfold kof in Kx. rewrite Kx in G1, G2, G3.
    unfold frun. repeat split; auto.
  - left. split; auto. unfold sapply. destruct (swr h) as [w|]; [|reflexivity]. apply strack_wr_keep. intros k0 _. repeat constructor.
Qed.

Theorem step_sim h H L seen o :
  R2 h H L -> hist_okb H = true -> incl (keys (sst h)) seen -> op_okb h seen o = true ->
  exists L', R2 (sapply kname kpath h o) (sp_apply H o) L'.
Proof.
  intros R O IS P. destruct o.
  - eapply sim_open; eauto.
  - eapply sim_write; eauto.
  - eapply sim_close; eauto.
  - apply (sim_update_g true h H L); auto.
  - eapply sim_rename; eauto.
  - eapply sim_removeold; eauto.
  - eapply sim_touch; eauto.
Qed.

(* the structured model with the ghost set of keys seen, run on a list of operations.
   ProofsTop.v has the same with queries and caches (ysys, evs_okb); its trace_refines is the theorem the properties are derived from *)
Record gstate := { g_h : sstate; g_seen : list skey }.
Definition g_init : gstate := {| g_h := s_init; g_seen := [] |}.
Definition gapply (g : gstate) (o : op) : gstate :=
  let h' := sapply kname kpath (g_h g) o in {| g_h := h'; g_seen := g_seen g ++ keys (sst h') |}.
Fixpoint ops_okb (g : gstate) (H : hist) (os : list op) : bool :=
  match os with
  | [] => true
  | o :: r => op_okb (g_h g) (g_seen g) o && hist_okb (sp_apply H o) && ops_okb (gapply g o) (sp_apply H o) r
  end.

Theorem run_sim os : forall g H L,
  R2 (g_h g) H L -> hist_okb H = true -> incl (keys (sst (g_h g))) (g_seen g) -> ops_okb g H os = true ->
  exists L', R2 (srun_ops kname kpath (g_h g) os) (sp_run H os) L' /\ hist_okb (sp_run H os) = true.
Proof.
  induction os as [|o os IH]; intros g H L R O S P; simpl in *.
  - exists L. auto.
  - apply andb_prop in P. destruct P as [P P3]. apply andb_prop in P. destruct P as [P1 P2].
    destruct (step_sim (g_h g) H L (g_seen g) o R O S P1) as [L' R'].
    apply (IH (gapply g o) (sp_apply H o) L'); auto. apply incl_appr, incl_refl.
Qed.
Corollary reachable_sim os : ops_okb g_init hist_init os = true ->
  exists L, R2 (srun_ops kname kpath s_init os) (sp_run hist_init os) L /\ hist_okb (sp_run hist_init os) = true.
Proof. intros P. apply (run_sim os g_init hist_init [] R2_init eq_refl); auto. intros x []. Qed.

End F.
