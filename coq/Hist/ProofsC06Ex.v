(* Concrete evaluations for C06 (vm_compute on the string-level model of the REPAIRED code; the store's answers are obtained from the
   evaluated premises and the evaluated specification by the refinement theorem):
   (1) the witnesses of F6a (same-second runs), F6b (glob metacharacters in the DAG name), F6c (stamp-like DAG names) and F6d (update
       during a run) satisfy every premise and are answered as the specification says; two premises that are still needed are shown
       to be needed: identical start stamps, re-created paths;
   (2) the premises are satisfiable by a non-trivial trace over four DAG names (shared prefixes, a space, the _c suffix). *)
From Coq Require Import List String Ascii Bool Arith ZArith.
Import ListNotations.
From BD.Hist Require Import GoMatch Model SModel Spec ProofsString ProofsRefine ProofsTop ProofsC06.
From BD.Hist Require ProofsNames.
Open Scope string_scope.
Open Scope list_scope.

(* the md5 values of these DAG paths, except for a[1].yaml and q*.yaml, which get two other distinct hex strings (the proofs only ever
   use that the resulting directory names differ) *)
Definition dh (d : string) : string :=
  if String.eqb d "/x/a.yaml" then "942ffe3d9505dd317630ccda32f9b969" else
  if String.eqb d "/x/ab.yaml" then "dca4f83ba2c302d7af6dc6af9fb10fd1" else
  if String.eqb d "/x/a b.yaml" then "55de50f18204bb351511ad74240b0358" else
  if String.eqb d "/x/w_c.yaml" then "c4dbda5f752c13c8d558e9a058c82b07" else
  if String.eqb d "/x/a[1].yaml" then "0b0bb5b6b0c1e6e2c2b0d0d1c5e5a5f5" else
  if String.eqb d "/x/q*.yaml" then "7c1d3f6a9b2e4d5f8a0b1c2d3e4f5a6b" else
  if String.eqb d "/x/n20240101.10:00:00.yaml" then "11538ca288a971e68a5fe691b6628a7b" else "00000000000000000000000000000000".
Definition loc := "/data".
Definition xOpen d st rq (t : nat) := EOp (OOpen d st rq (Z.of_nat t)).
Definition xWrite (tag size t : nat) := EOp (OWrite tag (Z.of_nat size) (Z.of_nat t)).
Definition xClose (t : nat) := EOp (OClose (Z.of_nat t)).
Definition xUpdate d rq (tag size t : nat) := EOp (OUpdate d rq tag (Z.of_nat size) (Z.of_nat t)).
Definition xRemoveOld d (cutoff : nat) := EOp (ORemoveOld d (Z.of_nat cutoff)).
Definition xTouch d st r8 c (t : nat) := EOp (OTouch d st r8 c (Z.of_nat t)).
Definition pl (rq : string) (tag size : nat) := {| p_req := rq; p_tag := tag; p_size := Z.of_nat size |}.
Definition a := "/x/a.yaml".
Definition ab := "/x/ab.yaml".
Definition asp := "/x/a b.yaml".
Definition wc := "/x/w_c.yaml".

(* under the premises the store's answers are the specification's (ProofsC06.refinement): only the latter are evaluated *)
Lemma answers_by_spec D days K es v : all_premisesb loc dh D days K es = true -> sp_trace hist_init es = v ->
  all_premisesb loc dh D days K es = true /\ ytrace loc dh sys_init es = v /\ sp_trace hist_init es = ytrace loc dh sys_init es.
Proof.
  intros P <-. pose proof P as Q. unfold all_premisesb in Q. apply andb_prop in Q as [Q C]. apply andb_prop in Q as [A B].
  rewrite (refinement loc dh D days K A B es (premisesb_sound loc dh D days K es C)). auto.
Qed.

(* F6a (fixed by e6d6379): two runs of one DAG started in the same second *)
Definition esA : list ev :=
  [xOpen a "20240101.10:00:00.100" "req-aaaa-1" 1; xWrite 1 10 2; xClose 3;
   xOpen a "20240101.10:00:00.300" "req-bbbb-2" 4; xWrite 2 10 5; xClose 6;
   ELatest (Some 0) a None; ERecent (Some 0) a 2].
Definition runsA := [("20240101.10:00:00.100", "req-aaaa"); ("20240101.10:00:00.300", "req-bbbb")].
(* before fix e6d6379 the model answered: latest = req-aaaa-1 (the OLDER run), recent 2 = [req-aaaa-1; req-bbbb-2] (oldest first),
   and the premise "start stamps distinct at seconds" failed for this trace *)
Example fixed_same_second :
  all_premisesb loc dh [a] [] (univ [a] runsA) esA = true
  /\ ytrace loc dh sys_init esA = [ANone; ANone; ANone; ANone; ANone; ANone;
        ALatest (LOk (pl "req-bbbb-2" 2 10)); ARecent [(pl "req-bbbb-2" 2 10); (pl "req-aaaa-1" 1 10)]]
  /\ sp_trace hist_init esA = ytrace loc dh sys_init esA.
Proof. apply answers_by_spec; vm_compute; reflexivity. Qed.

(* F6b (fixed by 8ffc003): glob metacharacters in the DAG name *)
Definition b := "/x/a[1].yaml".
Definition q := "/x/q*.yaml".
Definition esB : list ev :=
  [xOpen b "20240101.10:00:00.100" "req-aaaa-1" 1; xWrite 1 10 2; xClose 3; EFind b "req-aaaa-1"; ELatest None b None;
   EOp (ORename b q); EFind q "req-aaaa-1"; EFind b "req-aaaa-1"; ERecent (Some 1) q 3].
Definition runsB := [("20240101.10:00:00.100", "req-aaaa")].
(* before fix 8ffc003 the model answered: find = None and latest = no data for a[1] (its own history invisible), and the string
   premise names_okb failed for this name *)
Example fixed_glob_meta :
  all_premisesb loc dh [b; q] [] (univ [b; q] runsB) esB = true
  /\ ytrace loc dh sys_init esB = [ANone; ANone; ANone; AFind (Some (pl "req-aaaa-1" 1 10)); ALatest (LOk (pl "req-aaaa-1" 1 10));
        ANone; AFind (Some (pl "req-aaaa-1" 1 10)); AFind None; ARecent [(pl "req-aaaa-1" 1 10)]]
  /\ sp_trace hist_init esB = ytrace loc dh sys_init esB.
Proof. apply answers_by_spec; vm_compute; reflexivity. Qed.

(* F6c (fixed by e6d6379): a DAG name containing something shaped like a time stamp *)
Definition c := "/x/n20240101.10:00:00.yaml".
Definition esC : list ev :=
  [xOpen c "20240202.10:00:00.000" "req-aaaa-1" 1; xWrite 1 10 2; xClose 3;
   xOpen c "20240202.10:01:00.000" "req-bbbb-2" 4; xWrite 2 10 5; xClose 6; ELatest (Some 0) c None].
Definition runsC := [("20240202.10:00:00.000", "req-aaaa"); ("20240202.10:01:00.000", "req-bbbb")].
(* before fix e6d6379 the model answered: latest = req-aaaa-1 (every file of this DAG got the key 20240101.10:00:00 from its own
   directory name), and names_okb failed *)
Example fixed_stamp_like_name :
  all_premisesb loc dh [c] [] (univ [c] runsC) esC = true
  /\ ytrace loc dh sys_init esC = [ANone; ANone; ANone; ANone; ANone; ANone; ALatest (LOk (pl "req-bbbb-2" 2 10))]
  /\ sp_trace hist_init esC = ytrace loc dh sys_init esC.
Proof. apply answers_by_spec; vm_compute; reflexivity. Qed.

(* F6d (fixed by e2affa2): a manual update of the run that is still being recorded *)
Definition esD : list ev :=
  [xOpen a "20240101.10:00:00.100" "req-aaaa-1" 1; xWrite 1 10 2; xUpdate a "req-aaaa-1" 2 12 3; ELatest (Some 0) a None;
   xWrite 3 10 4; ELatest (Some 0) a None; EFind a "req-aaaa-1"].
(* before fix e2affa2 histories of this shape were outside the model's domain (the creating descriptor had no O_APPEND: the real
   store overwrote the update in place and the reader's cache kept answering status 2 after status 3 was written) *)
Example fixed_update_during_run :
  all_premisesb loc dh [a] [] (univ [a] runsA) esD = true
  /\ ytrace loc dh sys_init esD = [ANone; ANone; ANone; ALatest (LOk (pl "req-aaaa-1" 2 12)); ANone; ALatest (LOk (pl "req-aaaa-1" 3 10));
                                  AFind (Some (pl "req-aaaa-1" 3 10))]
  /\ sp_trace hist_init esD = ytrace loc dh sys_init esD.
Proof. apply answers_by_spec; vm_compute; reflexivity. Qed.

(* identical start stamps (same millisecond) of two runs of one DAG: "most recently started" is undefined; the specification breaks
   the tie by recording order, the store by file name *)
Definition esM : list ev :=
  [xOpen a "20240101.10:00:00.100" "req-zzzz-1" 1; xWrite 1 10 2; xClose 3;
   xOpen a "20240101.10:00:00.100" "req-bbbb-2" 4; xWrite 2 10 5; xClose 6; ELatest (Some 0) a None].
Lemma same_ms_needs_premise :
  (exists es, ytrace loc dh sys_init es <> sp_trace hist_init es) /\ evs_okb loc dh ysys_init hist_init esM = false.
Proof. split; [exists esM|]; vm_compute; [intro X; discriminate X | reflexivity]. Qed.
(* a path that is deleted and re-created with a status of the same size within the same second: the cache of a reader cannot see the
   difference (same size, same mtime second) - paths embed start milliseconds and request id, so this needs a re-used request id *)
Definition esR : list ev :=
  [xOpen a "20240101.10:00:00.100" "req-aaaa-1" 1; xWrite 1 10 2; ELatest (Some 0) a None; xRemoveOld a 100;
   xOpen a "20240101.10:00:00.100" "req-aaaa-1" 3; xWrite 2 10 4; ELatest (Some 0) a None; ELatest (Some 1) a None].
Lemma recreated_path_needs_premise :
  ytrace loc dh sys_init esR = [ANone; ANone; ALatest (LOk (pl "req-aaaa-1" 1 10)); ANone; ANone; ANone;
                                ALatest (LOk (pl "req-aaaa-1" 1 10)); ALatest (LOk (pl "req-aaaa-1" 2 10))]
  /\ evs_okb loc dh ysys_init hist_init esR = false.
Proof. split; vm_compute; reflexivity. Qed.

Definition DE := [a; ab; asp; wc].
Definition daysE := ["20240101"; "20240102"].
Definition runsE := [("20240101.10:00:00.100", "req-aaaa"); ("20240101.10:00:01.300", "req-bbbb"); ("20240102.09:00:00.000", "req-cccc")].
Definition KE := univ DE runsE.
Definition esE : list ev :=
  [xOpen a "20240101.10:00:00.100" "req-aaaa-1" 1000; xWrite 1 10 1001; ELatest (Some 0) a None;
   xWrite 2 12 1002; xClose 1003; ELatest (Some 0) a None;
   xOpen a "20240101.10:00:01.300" "req-bbbb-2" 1004; xWrite 3 5000 1005; xClose 1006;
   xOpen ab "20240102.09:00:00.000" "req-cccc-3" 1007; xWrite 4 10 1008;
   ERecent (Some 1) a 2; ELatest None a (Some "20240101"); ELatest (Some 0) ab (Some "20240101");
   xUpdate a "req-aaaa-1" 5 11 1009; EFind a "req-aaaa-1"; EFind ab "req-aaaa-1"; ERecent (Some 1) a 2;
   xClose 1010; xTouch a "20240101.10:00:00.100" "req-aaaa" true 5;
   EOp (ORename a wc); EFind wc "req-bbbb-2"; ERecent None wc 5; ERecent None a 5;
   xRemoveOld wc 100; ERecent (Some 0) wc 5; ELatest (Some 1) ab None].

Example premises_satisfiable :
  names_okb loc dh DE daysE KE = true /\ closedb DE KE = true /\ premisesb loc dh DE daysE KE esE = true.
Proof.
  split; [vm_compute; reflexivity|]. split; [apply ProofsNames.closedb_univ | vm_compute; reflexivity].
Qed.

Definition p1 := (pl "req-aaaa-1" 1 10).
Definition p2 := (pl "req-aaaa-1" 2 12).
Definition p3 := (pl "req-bbbb-2" 3 5000).
Definition p4 := (pl "req-cccc-3" 4 10).
Definition p5 := (pl "req-aaaa-1" 5 11).
Example premises_instance :
  ytrace loc dh sys_init esE = sp_trace hist_init esE
  /\ sp_trace hist_init esE =
     [ANone; ANone; ALatest (LOk p1); ANone; ANone; ALatest (LOk p2); ANone; ANone; ANone; ANone; ANone;
      ARecent [p3; p2]; ALatest (LOk p3); ALatest LNoData;
      ANone; AFind (Some p5); AFind None; ARecent [p3; p5];
      ANone; ANone; ANone; AFind (Some p3); ARecent [p3; p5]; ARecent [];
      ANone; ARecent [p3]; ALatest (LOk p4)].
Proof.
  split.
  - destruct premises_satisfiable as [A [B C]].
    exact (refinement loc dh DE daysE KE A B esE (premisesb_sound loc dh DE daysE KE esE C)).
  - vm_compute. reflexivity.
Qed.
