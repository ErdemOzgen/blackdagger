(* Facts about the port of filepath.Match (GoMatch.v) that hold for every name: more fuel than the
   pattern / chunk is long changes nothing, and an ESCAPED name (escapeGlob, 8ffc003) in front of a pattern matches exactly
   that name in front of the subject (`go_match_esc`); a pattern whose first chunk consists of plain and escaped characters is
   well-formed as far as Match looks on the empty name (`go_match_empty`); an escaped name as a whole pattern matches that name
   and no other (`go_match_esc_eq`).  Used by ProofsNames.v for the part of the string premises that holds whatever the DAG is
   called. *)
From Coq Require Import List String Ascii Bool Arith Lia.
Import ListNotations.
From BD.Hist Require Import GoMatch Model.
Open Scope char_scope.
Open Scope list_scope.

Notation L := list_ascii_of_string.
Lemma L_app a b : L (a ++ b)%string = (L a ++ L b)%list.
Proof. induction a; simpl; congruence. Qed.

Definition metab (c : ascii) : bool := aeq c "\" || aeq c "*" || aeq c "?" || aeq c "[".
Definition plainb (c : ascii) : bool := negb (metab c).
Lemma metab_false c : metab c = false -> aeq c "\" = false /\ aeq c "*" = false /\ aeq c "?" = false /\ aeq c "[" = false.
Proof.
  unfold metab. intros M. apply orb_false_elim in M. destruct M as [M M4]. apply orb_false_elim in M. destruct M as [M M3].
  apply orb_false_elim in M. tauto.
Qed.
Lemma aeq_refl c : aeq c c = true.  Proof. apply Ascii.eqb_refl. Qed.

(* the local function `lit` of GoMatch.mchunk (not the predicate `lit` below): one step of matchChunk on a chunk character other
   than an opening bracket *)
Definition mchunk_lit (f : nat) (failed : bool) (x : ascii) (ch s : la) : mres :=
  if failed then mchunk f ch s failed
  else match s with y :: t => mchunk f ch t (negb (aeq x y)) | [] => mchunk f ch s true end.
Lemma mchunk_step f x c s b : aeq x "[" = false ->
  mchunk (S f) (x :: c) s b =
  let failed := b || (match s with [] => true | _ => false end) in
  if aeq x "?" then
    if failed then mchunk f c s failed else match s with y :: t => mchunk f c t (aeq y "/") | [] => mchunk f c s true end
  else if aeq x "\" then match c with [] => MErr | y :: ch => mchunk_lit f failed y ch s end
  else mchunk_lit f failed x c s.
Proof. intros E. cbn [mchunk]. rewrite E. reflexivity. Qed.

Lemma mchunk_fuel f : forall c s b, existsb (fun x => aeq x "[") c = false -> List.length c < f -> mchunk (S f) c s b = mchunk f c s b.
Proof.
  induction f as [|f IH]; intros c s b N Lc; [lia|]. destruct c as [|x c]; [reflexivity|].
  cbn [existsb] in N. apply orb_false_elim in N. destruct N as [N1 N]. cbn [List.length] in Lc.
  assert (R : forall p c' s' b', c = p ++ c' -> mchunk (S f) c' s' b' = mchunk f c' s' b').
  { intros p c' s' b' E. subst c. rewrite existsb_app in N. apply orb_false_elim in N. rewrite app_length in Lc. apply IH; [apply N | lia]. }
  rewrite !mchunk_step by exact N1. cbv zeta. unfold mchunk_lit.
  destruct (aeq x "?").
  - destruct (b || _); [|destruct s]; apply (R []); reflexivity.
  - destruct (aeq x "\").
    + destruct c as [|y c']; [reflexivity|]. destruct (b || _); [|destruct s]; apply (R [y]); reflexivity.
    + destruct (b || _); [|destruct s]; apply (R []); reflexivity.
Qed.
Lemma mchunk_fuel_le c s b f f' : existsb (fun x => aeq x "[") c = false -> List.length c < f -> f <= f' -> mchunk f' c s b = mchunk f c s b.
Proof. intros N Lc. induction 1 as [|f' Le IH]; [reflexivity|]. rewrite mchunk_fuel by (auto; lia). exact IH. Qed.

Lemma skip_stars_len p : List.length (snd (skip_stars p)) <= List.length p.
Proof. induction p as [|c p IH]; [auto|]. cbn [skip_stars]. destruct (aeq c "*"); cbn [snd List.length]; lia. Qed.
Lemma scan_len n : forall p ir acc, List.length p <= n ->
  List.length (fst (scan p ir acc)) + List.length (snd (scan p ir acc)) = List.length acc + List.length p.
Proof.
  induction n as [|n IH]; intros p ir acc Lp.
  - destruct p; [|cbn [List.length] in Lp; lia]. cbn [scan fst snd List.length]. rewrite rev_length. lia.
  - destruct p as [|c p]. { cbn [scan fst snd List.length]. rewrite rev_length. lia. }
    cbn [List.length] in Lp. cbn [scan].
    destruct (aeq c "\").
    { destruct p as [|d p]. { cbn [fst snd List.length]. rewrite rev_length. cbn [List.length]. lia. }
      cbn [List.length] in Lp. rewrite IH by lia. cbn [List.length]. lia. }
    destruct (aeq c "["). { rewrite IH by lia. cbn [List.length]. lia. }
    destruct (aeq c "]"). { rewrite IH by lia. cbn [List.length]. lia. }
    destruct (aeq c "*"); [destruct ir|]; try (rewrite IH by lia; cbn [List.length]; lia).
    cbn [fst snd List.length]. rewrite rev_length. lia.
Qed.

Lemma gmatch_step f p n : p <> [] ->
  gmatch (S f) p n =
  let '(star, p1) := skip_stars p in
  let '(chunk, rest) := scan p1 false [] in
  let rest_empty := match rest with [] => true | _ => false end in
  match chunk with
  | [] => if star then Some (negb (has_sep n)) else Some (match n with [] => true | _ => false end)
  | _ =>
      let fallback :=
        if star then
          match star_loop chunk n rest_empty with
          | None => None
          | Some None => Some false
          | Some (Some t) => gmatch f rest t
          end
        else Some false in
      match mch chunk n with
      | MOk t => if (match t with [] => true | _ => false end) || negb rest_empty then gmatch f rest t else fallback
      | MErr => None
      | MFail => fallback
      end
  end.
Proof. destruct p; [congruence|reflexivity]. Qed.

Lemma gmatch_fuel f : forall p n, List.length p < f -> gmatch (S f) p n = gmatch f p n.
Proof.
  induction f as [|f IH]; intros p n Lp; [lia|]. destruct p as [|a p]; [reflexivity|].
  rewrite !gmatch_step by discriminate.
  pose proof (skip_stars_len (a :: p)) as L1. destruct (skip_stars (a :: p)) as [star p1]. cbn [snd] in L1.
  pose proof (scan_len _ p1 false [] (le_n _)) as L2. destruct (scan p1 false []) as [chunk rest]. cbn [fst snd List.length] in L2.
  destruct chunk as [|x chunk]; [reflexivity|]. cbn [List.length] in L2.
  assert (R : forall t, gmatch (S f) rest t = gmatch f rest t) by (intros t; apply IH; lia).
  cbv zeta. destruct (mch (x :: chunk) n) as [| |t]; [reflexivity| |].
  - destruct star; [|reflexivity]. destruct (star_loop _ _ _) as [[t|]|]; auto.
  - destruct (_ || _); [apply R|]. destruct star; [|reflexivity]. destruct (star_loop _ _ _) as [[t'|]|]; auto.
Qed.
Lemma gmatch_fuel_le p n f f' : List.length p < f -> f <= f' -> gmatch f' p n = gmatch f p n.
Proof. intros Lp. induction 1 as [|f' Le IH]; [reflexivity|]. rewrite gmatch_fuel by lia. exact IH. Qed.

(* chunks written as tokens: a character, escaped or not; unescaped only if it is no metacharacter (okt) *)
Definition tok := (bool * ascii)%type.
Definition tokl (t : tok) : la := if fst t then ["\"; snd t] else [snd t].
Definition okt (t : tok) : bool := fst t || negb (metab (snd t)).
Definition unparse (ts : list tok) : la := flat_map tokl ts.
Definition esc_toks (w : la) : list tok := map (fun c => (metab c, c)) w.     (* escapeGlob *)
Definition plain_toks (c : la) : list tok := map (pair false) c.

Lemma esc_glob_cons c w : esc_glob (String c w) = if metab c then String "\" (String c (esc_glob w)) else String c (esc_glob w).
Proof. reflexivity. Qed.
Lemma esc_unparse w : L (esc_glob w) = unparse (esc_toks (L w)).
Proof.
  induction w as [|c w IH]; [reflexivity|]. rewrite esc_glob_cons.
  cbn [L esc_toks map unparse flat_map tokl fst snd]. fold (esc_toks (L w)) (unparse (esc_toks (L w))). rewrite <- IH.
  destruct (metab c); reflexivity.
Qed.
Lemma esc_ok w : forallb okt (esc_toks w) = true.
Proof. induction w as [|c w IH]; [reflexivity|]. cbn [esc_toks map forallb]. unfold okt at 1. cbn [fst snd]. destruct (metab c); exact IH. Qed.
Lemma esc_snd w : map snd (esc_toks w) = w.
Proof. unfold esc_toks. rewrite map_map. apply map_id. Qed.
Lemma plain_unparse c : unparse (plain_toks c) = c.
Proof. induction c as [|x c IH]; [reflexivity|]. cbn [plain_toks map unparse flat_map tokl fst snd app]. f_equal. exact IH. Qed.
Lemma plain_ok c : forallb plainb c = true -> forallb okt (plain_toks c) = true /\ existsb (fun x => aeq x "[") c = false.
Proof.
  induction c as [|x c IH]; [auto|]. cbn [forallb plain_toks map existsb]. intros Pl. apply andb_prop in Pl. destruct Pl as [Px Pl].
  pose proof Px as Pm. unfold plainb in Pm. unfold okt at 1. cbn [fst snd orb]. rewrite Pm.
  apply negb_true_iff in Pm. destruct (metab_false x Pm) as [_ [_ [_ M4]]]. rewrite M4. exact (IH Pl).
Qed.
Lemma tok_head t r : okt t = true -> exists x r', tokl t ++ r = x :: r' /\ aeq x "*" = false /\ aeq x "[" = false.
Proof.
  destruct t as [[|] c]; unfold okt, tokl; cbn [fst snd orb app]; intros O.
  - exists "\", (c :: r). auto.
  - apply negb_true_iff in O. destruct (metab_false c O) as [_ [M2 [_ M4]]]. exists c, r. auto.
Qed.

Lemma scan_toks ts r : forallb okt ts = true -> forall acc, scan (unparse ts ++ r) false acc = scan r false (rev (unparse ts) ++ acc).
Proof.
  induction ts as [|[[|] c] ts IH]; cbn [forallb unparse flat_map tokl fst snd]; intros O acc.
  - reflexivity.
  - cbn. fold (unparse ts). rewrite (IH O), <- !app_assoc. reflexivity.
  - apply andb_prop in O. destruct O as [Oc O]. apply negb_true_iff in Oc. destruct (metab_false c Oc) as [M1 [M2 [_ M4]]].
    cbn [app scan]. fold (unparse ts). rewrite M1, M4, M2. destruct (aeq c "]"); rewrite (IH O); cbn [rev]; rewrite <- app_assoc; reflexivity.
Qed.
Lemma mchunk_tok t ch s b f : okt t = true ->
  mchunk (S f) (tokl t ++ ch) s b = mchunk_lit f (b || match s with [] => true | _ => false end) (snd t) ch s.
Proof.
  destruct t as [[|] c]; unfold okt, tokl; cbn [fst snd orb app]; intros O; [reflexivity|].
  apply negb_true_iff in O. destruct (metab_false c O) as [M1 [_ [M3 M4]]]. rewrite mchunk_step by exact M4. cbv zeta.
  rewrite M3, M1. reflexivity.
Qed.
Lemma mchunk_toks ts : forallb okt ts = true -> forall c2 s f,
  mchunk (List.length ts + f) (unparse ts ++ c2) (map snd ts ++ s) false = mchunk f c2 s false.
Proof.
  induction ts as [|t ts IH]; [reflexivity|]. cbn [forallb unparse flat_map map List.length Nat.add app]. fold (unparse ts).
  intros O c2 s f. apply andb_prop in O. destruct O as [Ot O]. rewrite <- app_assoc, (mchunk_tok _ _ _ _ _ Ot).
  cbn [orb mchunk_lit]. rewrite aeq_refl. apply (IH O).
Qed.
Lemma mchunk_failed ts : forallb okt ts = true -> forall s f, List.length ts < f -> mchunk f (unparse ts) s true = MFail.
Proof.
  induction ts as [|t ts IH]; cbn [forallb List.length]; intros O s [|f] Lf; try lia; [reflexivity|].
  apply andb_prop in O. destruct O as [Ot O]. cbn [unparse flat_map]. rewrite (mchunk_tok _ _ _ _ _ Ot). apply (IH O). lia.
Qed.
Fixpoint strip (p s : la) : option la :=
  match p, s with
  | [], _ => Some s
  | c :: p', y :: t => if aeq c y then strip p' t else None
  | _ :: _, [] => None
  end.
Lemma mchunk_strip ts : forallb okt ts = true -> forall s f, List.length ts < f ->
  mchunk f (unparse ts) s false = match strip (map snd ts) s with Some t => MOk t | None => MFail end.
Proof.
  induction ts as [|t ts IH]; cbn [forallb List.length map strip]; intros O s [|f] Lf; try lia; [reflexivity|].
  apply andb_prop in O. destruct O as [Ot O]. cbn [unparse flat_map]. rewrite (mchunk_tok _ _ _ _ _ Ot). cbn [orb].
  destruct s as [|y s]; [apply (mchunk_failed ts O); lia|]. cbn [mchunk_lit]. destruct (aeq (snd t) y); cbn [negb].
  - apply (IH O). lia.
  - apply (mchunk_failed ts O). lia.
Qed.
Lemma unparse_length ts : List.length ts <= List.length (unparse ts).
Proof.
  induction ts as [|t ts IH]; [auto|]. cbn [unparse flat_map]. fold (unparse ts). rewrite app_length.
  destruct t as [[|] c]; cbn [tokl fst snd List.length]; lia.
Qed.
Lemma skip_stars_nostar c p : aeq c "*" = false -> skip_stars (c :: p) = (false, c :: p).
Proof. intros E. cbn [skip_stars]. rewrite E. reflexivity. Qed.

Definition lit (l : la) : Prop := exists ts, forallb okt ts = true /\ unparse ts = l.
Lemma lit_esc w : lit (L (esc_glob w)).
Proof. exists (esc_toks (L w)). split; [apply esc_ok | symmetry; apply esc_unparse]. Qed.
Lemma lit_plain c : forallb plainb c = true -> lit c.
Proof. intros P. exists (plain_toks c). split; [apply (plain_ok c P) | apply plain_unparse]. Qed.
Lemma lit_app a b : lit a -> lit b -> lit (a ++ b).
Proof.
  intros [ta [Oa <-]] [tb [Ob <-]]. exists (ta ++ tb). split; [rewrite forallb_app, Oa, Ob; reflexivity | apply flat_map_app].
Qed.

Lemma gmatch_chunk ts q f nm : ts <> [] -> forallb okt ts = true ->
  gmatch (S f) (unparse ts ++ "*" :: q) nm
  = match mch (unparse ts) nm with MOk t => gmatch f ("*" :: q) t | MErr => None | MFail => Some false end.
Proof.
  intros Nt O. destruct ts as [|t ts]; [congruence|]. cbn [forallb] in O. apply andb_prop in O. destruct O as [Ot O].
  destruct (tok_head t (unparse ts) Ot) as [x [r [E [Ex _]]]]. pose proof (scan_toks (t :: ts) ("*" :: q)) as Sc.
  cbn [unparse flat_map forallb] in *. fold (unparse ts) in *. rewrite Ot, O in Sc. specialize (Sc eq_refl []).
  rewrite E in *. rewrite gmatch_step by discriminate. cbn [app]. rewrite skip_stars_nostar by exact Ex.
  change (x :: r ++ "*" :: q) with ((x :: r) ++ "*" :: q). rewrite Sc, app_nil_r. cbn [scan aeq Ascii.eqb Bool.eqb]. rewrite rev_involutive. cbv zeta.
  destruct (mch (x :: r) nm) as [| |u]; try reflexivity. rewrite orb_true_r. reflexivity.
Qed.

(* the escaped name cancels against the name.  c2: the literal rest of the first chunk; the pattern goes on with a star *)
Theorem go_match_esc w c2 q n : forallb plainb (L c2) = true ->
  go_match (esc_glob w ++ c2 ++ String "*" q) (w ++ n) = go_match (c2 ++ String "*" q) n.
Proof.
  intros Pl. destruct w as [|c w]; [reflexivity|]. unfold go_match. rewrite !L_app. set (w' := String c w). cbn [L].
  destruct (plain_ok _ Pl) as [O2 N2]. set (tw := esc_toks (L w')). pose proof (esc_ok (L w')) as Ow. fold tw in Ow.
  assert (Lw : 0 < List.length tw) by (unfold tw; cbn; lia). pose proof (unparse_length tw) as El.
  (* left: the first chunk is the escaped name followed by c2; matching it leaves what matching c2 leaves *)
  assert (Eu : unparse (tw ++ plain_toks (L c2)) = unparse tw ++ L c2).
  { unfold unparse. rewrite flat_map_app. fold (unparse (plain_toks (L c2))). rewrite plain_unparse. reflexivity. }
  assert (Ep : L (esc_glob w') ++ L c2 ++ "*" :: L q = unparse (tw ++ plain_toks (L c2)) ++ "*" :: L q).
  { rewrite Eu, esc_unparse, app_assoc. reflexivity. }
  rewrite Ep, gmatch_chunk by (try (destruct tw; [cbn in Lw; lia|discriminate]); rewrite forallb_app, Ow, O2; reflexivity).
  rewrite Eu, <- (esc_snd (L w')) at 1. fold tw.
  assert (M : mch (unparse tw ++ L c2) (map snd tw ++ L n) = mch (L c2) (L n)).
  { unfold mch. rewrite app_length.
    replace (S (S (List.length (unparse tw) + List.length (L c2))))
      with (List.length tw + (S (S (List.length (L c2))) + (List.length (unparse tw) - List.length tw))) by lia.
    rewrite (mchunk_toks tw Ow). apply mchunk_fuel_le; auto; lia. }
  rewrite M.
  (* right: the same, with less fuel *)
  assert (F : forall f f' t, List.length ("*" :: L q) < f -> List.length ("*" :: L q) < f' -> gmatch f ("*" :: L q) t = gmatch f' ("*" :: L q) t).
  { intros f f' t Lf Lf'. transitivity (gmatch (S (List.length ("*" :: L q))) ("*" :: L q) t); [|symmetry]; apply gmatch_fuel_le; lia. }
  assert (Lp : List.length ("*" :: L q) < List.length (unparse (tw ++ plain_toks (L c2)) ++ "*" :: L q))
    by (rewrite Eu, !app_length; cbn [List.length]; lia).
  destruct (L c2) as [|y c2'] eqn:Ec.
  - cbn [app]. unfold mch. cbn [mchunk List.length]. apply F; [exact Lp | cbn [List.length]; lia].
  - assert (Er : (y :: c2') ++ "*" :: L q = unparse (plain_toks (y :: c2')) ++ "*" :: L q) by (rewrite plain_unparse; reflexivity).
    rewrite Er, gmatch_chunk by (try discriminate; exact O2). rewrite plain_unparse.
    destruct (mch (y :: c2') (L n)) as [| |t]; try reflexivity. apply F; [exact Lp | rewrite app_length; cbn [List.length]; lia].
Qed.

(* a literal first chunk followed by a star: well-formed as far as Match looks on the empty name *)
Theorem go_match_empty x q : x <> ""%string -> lit (L x) -> go_match (x ++ String "*" q) "" = Some false.
Proof.
  intros Nx [ts [O E]]. unfold go_match. rewrite L_app, <- E. cbn [L].
  assert (Nt : ts <> []) by (intros ->; destruct x; [congruence|discriminate]).
  rewrite gmatch_chunk by assumption. unfold mch.
  replace (mchunk (S (S (List.length (unparse ts)))) (unparse ts) [] false) with (mchunk (S (S (List.length (unparse ts)))) (unparse ts) [] true).
  - pose proof (unparse_length ts). rewrite (mchunk_failed ts O) by lia. reflexivity.
  - destruct ts as [|t ts]; [congruence|]. cbn [forallb] in O. apply andb_prop in O. destruct O as [Ot _].
    destruct (tok_head t (unparse ts) Ot) as [y [r [Ey [_ E4]]]]. cbn [unparse flat_map]. fold (unparse ts). rewrite Ey.
    rewrite !mchunk_step by exact E4. reflexivity.
Qed.

Lemma gmatch_lit ts f nm : ts <> [] -> forallb okt ts = true -> 0 < f ->
  gmatch (S f) (unparse ts) nm = Some (match strip (map snd ts) nm with Some [] => true | _ => false end).
Proof.
  intros Nt O Lf. pose proof (unparse_length ts) as Lu. pose proof (scan_toks ts [] O []) as Sc.
  pose proof (mchunk_strip ts O nm (S (S (List.length (unparse ts))))) as M. fold (mch (unparse ts) nm) in M.
  rewrite !app_nil_r in Sc. cbn [scan] in Sc. rewrite rev_involutive in Sc.
  assert (Sk : skip_stars (unparse ts) = (false, unparse ts)).
  { destruct ts as [|t ts]; [congruence|]. cbn [forallb] in O. apply andb_prop in O. destruct O as [Ot _].
    destruct (tok_head t (unparse ts) Ot) as [x [r [E [Ex _]]]]. cbn [unparse flat_map]. fold (unparse ts). rewrite E.
    apply skip_stars_nostar, Ex. }
  destruct (unparse ts) as [|x r]; [destruct ts; [congruence|cbn [List.length] in Lu; lia]|].
  rewrite gmatch_step, Sk, Sc, M by (discriminate || lia). cbv zeta.
  destruct (strip (map snd ts) nm) as [[|y t]|]; try reflexivity. destruct f; [lia|reflexivity].
Qed.
Theorem go_match_lit ts x n : forallb okt ts = true -> L x = unparse ts ->
  go_match x n = Some (match strip (map snd ts) (L n) with Some [] => true | _ => false end).
Proof.
  intros O E. unfold go_match. rewrite E. destruct ts as [|t ts]; [destruct (L n); reflexivity|].
  apply gmatch_lit; [discriminate | exact O |]. pose proof (unparse_length (t :: ts)). cbn [List.length] in *. lia.
Qed.
Lemma strip_eqb w n : match strip (L w) (L n) with Some [] => true | _ => false end = String.eqb w n.
Proof.
  revert n. induction w as [|c w IH]; intros [|y n]; try reflexivity. cbn [L strip String.eqb]. unfold aeq.
  destruct (Ascii.eqb c y); [apply IH|reflexivity].
Qed.
Theorem go_match_esc_eq w n : go_match (esc_glob w) n = Some (String.eqb w n).
Proof. rewrite (go_match_lit (esc_toks (L w))), esc_snd, strip_eqb; [reflexivity | apply esc_ok | apply esc_unparse]. Qed.
(* escapeGlob leaves a metacharacter behind wherever it escapes *)
Lemma has_meta_esc w : has_meta (esc_glob w) = false -> esc_glob w = w.
Proof.
  induction w as [|c w IH]; [reflexivity|]. rewrite esc_glob_cons.
  destruct (metab c); [intros H; discriminate H|]. unfold has_meta. cbn [L existsb]. intros H. apply orb_false_elim in H.
  f_equal. apply IH, H.
Qed.
