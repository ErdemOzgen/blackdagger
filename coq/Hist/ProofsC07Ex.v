(* Concrete evaluations for C07 (vm_compute on the string-level model of the REPAIRED code; what all nine crash states of the Close
   answer is obtained from the crash theorems and the evaluated run maps): the witnesses of F7a (empty newest file, 3aa388e), F7b
   (compaction twin, eb925d1) and F7c (update glued to a torn tail, 32b069b), each with what the model answered before the fix;
   the premises of the theorems hold for a trace whose operations have several crash states each; retention and rename are not
   atomic. *)
From Coq Require Import List String Ascii Bool Arith ZArith.
Import ListNotations.
From BD.Hist Require Import GoMatch Model SModel Spec ProofsString ProofsRefine ProofsTop ProofsC06 ProofsC06Ex ProofsC07.
Open Scope string_scope.
Open Scope list_scope.

Definition es0 : list ev := [xOpen a "20240101.10:00:00.100" "req-aaaa-1" 1; xWrite 1 10 2; xClose 3].
Definition es1 : list ev := es0 ++ [xOpen a "20240101.10:00:01.300" "req-bbbb-2" 4; xWrite 2 10 5].
Definition oOpen : op := OOpen a "20240101.10:00:01.300" "req-bbbb-2" 4%Z.
Definition q1 := pl "req-aaaa-1" 1 10.
Definition q2 := pl "req-bbbb-2" 2 10.

(* F7a (fixed by 3aa388e): killed between Open's create and the first write the newest file is empty.  Before the fix the model
   answered latest = error (io.EOF) and recent 1 = nothing in that crash state, although the previous run has acknowledged data;
   now every crash state of this Open answers with the previous run's status *)
Example fixed_empty_newest :
  sp_latest (sp_state es0) a None = LOk q1 /\ sp_recent (sp_state es0) a 1 = [q1]
  /\ List.length (crash_states loc dh (y_h (yrun loc dh sys_init es0)) oOpen) = 3
  /\ forallb (fun fs' => match snd (q_latest loc dh [] fs' a None), snd (q_recent loc dh [] fs' a 1) with
                         | LOk p, [p'] => String.eqb (p_req p) "req-aaaa-1" && String.eqb (p_req p') "req-aaaa-1" && Nat.eqb (p_tag p) 1
                         | _, _ => false end)
             (crash_states loc dh (y_h (yrun loc dh sys_init es0)) oOpen) = true.
Proof. repeat apply conj; vm_compute; reflexivity. Qed.

Definition DE7 := [a; ab].
Definition runsE7 := [("20240101.10:00:00.100", "req-aaaa"); ("20240101.10:00:01.300", "req-bbbb")].
Definition KE7 := univ DE7 runsE7.
Example crash_premises_satisfiable :
  names_okb loc dh DE7 [] KE7 = true /\ closedb DE7 KE7 = true
  /\ premisesb loc dh DE7 [] KE7 (es1 ++ [EOp (OWrite 3 10 7%Z)]) = true
  /\ premisesb loc dh DE7 [] KE7 (es1 ++ [EOp (OClose 6%Z)]) = true
  /\ premisesb loc dh DE7 [] KE7 (es0 ++ [EOp (OUpdate a "req-aaaa-1" 5 11 9%Z)]) = true
  /\ premisesb loc dh DE7 [] KE7 (es0 ++ [EOp (ORemoveOld a 100%Z)]) = true
  /\ List.length (crash_states loc dh (y_h (yrun loc dh sys_init es1)) (OWrite 3 10 7%Z)) = 4
  /\ List.length (crash_states loc dh (y_h (yrun loc dh sys_init es1)) (OClose 6%Z)) = 9
  /\ List.length (crash_states loc dh (y_h (yrun loc dh sys_init es0)) (OUpdate a "req-aaaa-1" 5 11 9%Z)) = 6.
Proof. repeat apply conj; vm_compute; reflexivity. Qed.

(* F7b (fixed by eb925d1): killed inside the compaction of Close.  The copy is written as <file>_c.dat.tmp (matched by no pattern),
   published with a rename, and from then on the readers drop the original (dropCompacted).  Before the fix the model answered
   recent 2 = [q2; q2] in the crash state in which the compacted copy was complete and the original not yet unlinked - the older run
   with acknowledged data was hidden; now ALL nine crash states of this Close answer [q2; q1], the one with both files included *)
Definition closeStates := crash_states loc dh (y_h (yrun loc dh sys_init es1)) (OClose 6%Z).
Example fixed_compaction_twin :
  sp_recent (sp_state es1) a 2 = [q2; q1] /\ sp_recent (sp_state (es1 ++ [EOp (OClose 6%Z)])) a 2 = [q2; q1]
  /\ List.length closeStates = 9
  /\ forallb (fun fs' => match snd (q_recent loc dh [] fs' a 2), snd (q_latest loc dh [] fs' a None) with
                         | [p; p'], LOk p'' => String.eqb (p_req p) "req-bbbb-2" && String.eqb (p_req p') "req-aaaa-1" && Nat.eqb (p_tag p'') 2
                         | _, _ => false end) closeStates = true
  /\ map (fun fs' => List.length (files fs')) closeStates = [2; 2; 2; 3; 3; 3; 3; 3; 2]%nat
  /\ map e_name (files (nth 7 closeStates fs_empty))
     = ["a.20240101.10:00:00.100.req-aaaa_c.dat"; "a.20240101.10:00:01.300.req-bbbb.dat"; "a.20240101.10:00:01.300.req-bbbb_c.dat"].
Proof.
  destruct crash_premises_satisfiable as (A & B & _ & C & _). repeat apply conj.
  (* by the crash theorem every crash state answers as the run map before or after the Close *)
  4: { unfold closeStates. apply forallb_forall. intros fs' I.
       destruct (crash_atomic loc dh DE7 [] KE7 A B es1 (OClose 6%Z) fs' (premisesb_sound _ _ _ _ _ _ C) eq_refl I) as [X|X];
         destruct (X a (or_introl eq_refl)) as (_ & L & R); rewrite R, (L None Logic.I); vm_compute; reflexivity. }
  all: vm_compute; reflexivity.
Qed.
(* the temporary copy - empty, torn, complete - is invisible *)
Example tmp_copy_invisible :
  map e_name (files (nth 4 closeStates fs_empty))
  = ["a.20240101.10:00:00.100.req-aaaa_c.dat"; "a.20240101.10:00:01.300.req-bbbb.dat"; "a.20240101.10:00:01.300.req-bbbb_c.dat.tmp"]
  /\ forallb (fun i => match q_find loc dh (nth i closeStates fs_empty) a "req-bbbb-2" with
                       | FFound _ fn p => String.eqb fn "a.20240101.10:00:01.300.req-bbbb.dat" && Nat.eqb (p_tag p) 2
                       | _ => false end) [3; 4; 5; 6]%nat = true.
Proof. split; vm_compute; reflexivity. Qed.

(* F7c (fixed by 32b069b): a write torn by the kill leaves an unterminated tail; a status update recorded afterwards by a new process.
   Before the fix the model glued the update to the torn tail: the line did not parse and find kept answering the OLD status q2 (the
   acknowledged update was lost).  Now writer.open terminates the torn line first and the update (tag 9) is what find answers - for a
   torn JSON prefix (crash state 1) and for a complete-but-unterminated status (crash state 2) *)
Definition upd9 : op := OUpdate a "req-bbbb-2" 9 10 8%Z.
Definition tornStates := crash_states loc dh (y_h (yrun loc dh sys_init es1)) (OWrite 3 10 7%Z).
Example fixed_glued_update :
  List.length tornStates = 4
  /\ forallb (fun fs' => match fpayload (q_find loc dh (hfs (apply loc dh (fresh_state fs') upd9)) a "req-bbbb-2"),
                               snd (q_latest loc dh [] (hfs (apply loc dh (fresh_state fs') upd9)) a None) with
                         | Some p, LOk p' => Nat.eqb (p_tag p) 9 && Nat.eqb (p_tag p') 9
                         | _, _ => false end) tornStates = true
  /\ map (fun fs' => List.length (prims loc dh upd9 (fresh_state fs'))) tornStates = [3; 4; 4; 3]%nat.
Proof. repeat apply conj; vm_compute; reflexivity. Qed.

(* ... and in ALL nine crash states of the Close (temporary copy absent / empty / torn / complete, compacted copy published next to the
   original, original removed) an update recorded afterwards by a new process is shown by all three queries: FindByRequestID scans
   the matches in REVERSE name order, so next to its original the compacted copy is the file found, updated - and read by the listings *)
Example update_after_close_crash :
  forallb (fun fs' => let fs2 := hfs (apply loc dh (fresh_state fs') upd9) in
                      match fpayload (q_find loc dh fs2 a "req-bbbb-2"), snd (q_latest loc dh [] fs2 a None), snd (q_recent loc dh [] fs2 a 2) with
                      | Some p, LOk p', [r1; r2] => Nat.eqb (p_tag p) 9 && Nat.eqb (p_tag p') 9 && Nat.eqb (p_tag r1) 9
                                                   && String.eqb (p_req r1) "req-bbbb-2" && String.eqb (p_req r2) "req-aaaa-1"
                      | _, _, _ => false end) closeStates = true.
Proof.
  destruct crash_premises_satisfiable as (A & B & _ & C & _). unfold closeStates. apply forallb_forall. intros fs' I.
  (* by the crash theorem the answers are those of the run map before or after the Close, with the update recorded *)
  destruct (update_after_crash0 loc dh DE7 [] KE7 A B es1 (OClose 6%Z) fs' a "req-bbbb-2" 9 10 8%Z
              (premisesb_sound _ _ _ _ _ _ C) eq_refl I (or_introl eq_refl)) as [X|X];
    destruct (X a (or_introl eq_refl)) as (F & L & R); cbv zeta; unfold upd9; rewrite F, (L None Logic.I), R; vm_compute; reflexivity.
Qed.

(* retention and rename are NOT atomic under a kill (one unlink / rename per history file): the intermediate states are visible.
   The theorems ProofsC07.crash_removeold_full0 / crash_rename_full0 say exactly what they answer. *)
Definition es2 : list ev := es1 ++ [xClose 6].
Definition rmStates := crash_states loc dh (y_h (yrun loc dh sys_init es2)) (ORemoveOld a 100%Z).
Lemma retention_not_atomic :
  exists fs', In fs' rmStates
    /\ sp_recent (sp_state es2) a 5 = [q2; q1] /\ sp_recent (sp_state (es2 ++ [EOp (ORemoveOld a 100%Z)])) a 5 = []
    /\ snd (q_recent loc dh [] fs' a 5) = [q2].
Proof. exists (nth 1 rmStates fs_empty). split; [vm_compute; auto|]. vm_compute. auto. Qed.
Definition mvStates := crash_states loc dh (y_h (yrun loc dh sys_init es2)) (ORename a ab).
Lemma rename_not_atomic :
  exists fs', In fs' mvStates
    /\ sp_recent (sp_state es2) a 5 = [q2; q1] /\ sp_recent (sp_state es2) ab 5 = []
    /\ sp_recent (sp_state (es2 ++ [EOp (ORename a ab)])) a 5 = [] /\ sp_recent (sp_state (es2 ++ [EOp (ORename a ab)])) ab 5 = [q2; q1]
    /\ snd (q_recent loc dh [] fs' a 5) = [q2] /\ snd (q_recent loc dh [] fs' ab 5) = [q1]
    /\ fpayload (q_find loc dh fs' a "req-aaaa-1") = None /\ fpayload (q_find loc dh fs' ab "req-aaaa-1") = Some q1.
Proof. exists (nth 2 mvStates fs_empty). split; [vm_compute; auto 10|]. vm_compute. auto 10. Qed.
Example partial_ops_premises :
  premisesb loc dh DE7 [] KE7 (es2 ++ [EOp (ORemoveOld a 100%Z)]) = true /\ premisesb loc dh DE7 [] KE7 (es2 ++ [EOp (ORename a ab)]) = true
  /\ List.length rmStates = 3 /\ List.length mvStates = 5.
Proof. repeat apply conj; vm_compute; reflexivity. Qed.
