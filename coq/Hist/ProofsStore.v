(* Facts about the structured store (Hist/SModel.v): lookup (one function for files and cache entries,
   also after each primitive step), what a glob lists and a lookup by request id finds, the loops over LoadLatest, the effect
   of the primitive step lists of the operations (a run of appends, a list of unlinks, a list of renames), file sizes.
   String-free. *)
From Coq Require Import List String Ascii Bool Arith ZArith Lia Permutation.
Import ListNotations.
From BD.Hist Require Import Model SModel ProofsLib.

Definition keys (s : sfs) : list skey := map fst (sfiles s).

(* how SAppend and STouch act on the files *)
Definition upd_key (k : skey) (g : file -> file) (l : list sent) : list sent :=
  map (fun e => if skey_eqb k (fst e) then (k, g (snd e)) else e) l.
Definition set_mt (t : Z) (f : file) : file := {| items := items f; ftail := ftail f; mtime := t |}.

Definition alook {V} (l : list (skey * V)) (k : skey) : option V :=
  match filter (fun e => skey_eqb k (fst e)) l with e :: _ => Some (snd e) | [] => None end.
Lemma sget_alook s k : sget s k = alook (sfiles s) k.  Proof. reflexivity. Qed.
Lemma scache_get_alook c k : scache_get c k = alook c k.  Proof. reflexivity. Qed.

Lemma alook_cons {V} k (v : V) l k0 : alook ((k, v) :: l) k0 = if skey_eqb k0 k then Some v else alook l k0.
Proof. unfold alook. simpl. destruct (skey_eqb k0 k); reflexivity. Qed.
Lemma alook_app {V} (l1 l2 : list (skey * V)) k0 : alook (l1 ++ l2) k0 = match alook l1 k0 with Some f => Some f | None => alook l2 k0 end.
Proof. induction l1 as [|[k v] l IH]; [reflexivity|]. simpl app. rewrite !alook_cons, IH. destruct (skey_eqb k0 k); reflexivity. Qed.
Lemma alook_filter_ne {V} k (l : list (skey * V)) k0 :
  alook (filter (fun e => negb (skey_eqb k (fst e))) l) k0 = if skey_eqb k0 k then None else alook l k0.
Proof.
  induction l as [|[k1 v] l IH]; [destruct (skey_eqb k0 k); reflexivity|]. cbn [filter fst].
  destruct (skey_eqb_spec k k1) as [<-|N]; cbn [negb]; rewrite ?alook_cons, IH.
  - destruct (skey_eqb k0 k); reflexivity.
  - destruct (skey_eqb_spec k0 k1) as [->|]; [|reflexivity]. apply skey_eqb_neq in N. rewrite (skey_eqb_sym k1 k), N. reflexivity.
Qed.
Lemma alook_upd k g (l : list (skey * file)) k0 :
  alook (upd_key k g l) k0 = if skey_eqb k0 k then option_map g (alook l k) else alook l k0.
Proof.
  unfold upd_key. induction l as [|[k1 v] l IH]; [destruct (skey_eqb k0 k); reflexivity|]. cbn [map fst snd].
  destruct (skey_eqb_spec k k1) as [<-|N]; rewrite !alook_cons, IH.
  - rewrite skey_eqb_refl. destruct (skey_eqb k0 k); reflexivity.
  - apply skey_eqb_neq in N. rewrite N. destruct (skey_eqb_spec k0 k1) as [->|]; [|reflexivity].
    rewrite (skey_eqb_sym k1 k), N. reflexivity.
Qed.
Lemma alook_rename {V} k k' (l : list (skey * V)) k0 : k0 <> k' -> k <> k' ->
  alook (map (fun e => if skey_eqb k (fst e) then (k', snd e) else e) l) k0 = if skey_eqb k0 k then None else alook l k0.
Proof.
  intros N0 N. apply skey_eqb_neq in N0. induction l as [|[k1 v] l IH]; [destruct (skey_eqb k0 k); reflexivity|]. cbn [map fst snd].
  destruct (skey_eqb_spec k k1) as [<-|N1]; rewrite !alook_cons, IH.
  - rewrite N0. destruct (skey_eqb k0 k); reflexivity.
  - destruct (skey_eqb_spec k0 k1) as [->|]; [|reflexivity]. apply not_eq_sym, skey_eqb_neq in N1. rewrite N1. reflexivity.
Qed.
Lemma alook_in {V} (l : list (skey * V)) k v : alook l k = Some v -> In (k, v) l.
Proof.
  induction l as [|[k1 v1] l IH]; [discriminate|]. rewrite alook_cons. destruct (skey_eqb_spec k k1) as [->|].
  - intros E. inversion E. left. reflexivity.
  - intros E. right. auto.
Qed.
Lemma alook_none {V} (l : list (skey * V)) k : alook l k = None <-> ~ In k (map fst l).
Proof.
  induction l as [|[k1 v1] l IH]; [simpl; tauto|]. rewrite alook_cons. cbn [map fst In]. destruct (skey_eqb_spec k k1) as [->|N].
  - split; [discriminate|tauto].
  - rewrite IH. split; [intros H [E|I]; [congruence|tauto] | tauto].
Qed.
Lemma in_alook {V} (l : list (skey * V)) k v : NoDup (map fst l) -> In (k, v) l -> alook l k = Some v.
Proof.
  induction l as [|[k1 v1] l IH]; [simpl; tauto|]. cbn [map fst]. intros N I. inversion N; subst. rewrite alook_cons.
  destruct I as [E|I]. { inversion E; subst. rewrite skey_eqb_refl. reflexivity. }
  destruct (skey_eqb_spec k k1) as [->|]; auto. exfalso. apply H1. apply (in_map fst _ _ I).
Qed.

Lemma sget_in s k f : sget s k = Some f -> In (k, f) (sfiles s).
Proof. apply alook_in. Qed.
Lemma sget_none s k : sget s k = None <-> ~ In k (keys s).
Proof. apply alook_none. Qed.
Lemma in_sget s k f : NoDup (keys s) -> In (k, f) (sfiles s) -> sget s k = Some f.
Proof. apply in_alook. Qed.
Lemma shas_true s k : shas s k = true <-> In k (keys s).
Proof.
  unfold shas. destruct (sget s k) as [f|] eqn:E.
  - split; auto. intros _. apply sget_in in E. apply (in_map fst _ _ E).
  - apply sget_none in E. split; [discriminate|contradiction].
Qed.
Lemma shas_false s k : shas s k = false <-> ~ In k (keys s).
Proof. rewrite <- shas_true. destruct (shas s k); split; congruence. Qed.

Lemma scache_get_del c k k' : scache_get (scache_del c k) k' = if skey_eqb k' k then None else scache_get c k'.
Proof. apply (alook_filter_ne k c k'). Qed.
Lemma scache_get_put c k e k' : scache_get (scache_put c k e) k' = if skey_eqb k' k then Some e else scache_get c k'.
Proof. unfold scache_put. rewrite scache_get_alook, alook_cons, <- scache_get_alook, scache_get_del. destruct (skey_eqb k' k); reflexivity. Qed.

Lemma sget_create s k now k0 :
  sget (run_sprim s (SCreate k now)) k0
  = match sget s k0 with Some f => Some f | None => if skey_eqb k0 k && negb (shas s k) then Some (empty_file now) else None end.
Proof.
  cbn [run_sprim]. destruct (shas s k); cbv iota; [rewrite andb_false_r; destruct (sget s k0); reflexivity|].
  rewrite !sget_alook. cbn [sfiles]. rewrite (@alook_app file), alook_cons, andb_true_r. destruct (alook (sfiles s) k0); reflexivity.
Qed.
Lemma sget_upd s k g k0 :
  sget {| sdirs := sdirs s; sfiles := upd_key k g (sfiles s) |} k0 = if skey_eqb k0 k then option_map g (sget s k) else sget s k0.
Proof. rewrite !sget_alook. apply alook_upd. Qed.
Lemma sget_unlink s k k0 : sget (run_sprim s (SUnlink k)) k0 = if skey_eqb k0 k then None else sget s k0.
Proof. rewrite !sget_alook. apply alook_filter_ne. Qed.
Lemma sget_rename s k k' k0 : k0 <> k' -> k <> k' -> shas s k = true ->
  sget (run_sprim s (SRename k k')) k0 = if skey_eqb k0 k then None else sget s k0.
Proof.
  intros N0 N H. cbn [run_sprim]. rewrite H. apply skey_eqb_neq in N. rewrite N. rewrite !sget_alook. cbn [sfiles].
  rewrite alook_rename by (auto; apply skey_eqb_neq; auto). rewrite alook_filter_ne.
  apply skey_eqb_neq in N0. rewrite N0. reflexivity.
Qed.

Lemma sglob_iff kname s d pk e : In e (sglob kname s d pk) <->
  shas_dir s d = true /\ In e (sfiles s) /\ k_dag (fst e) = d /\ in_patk pk (fst e) = true.
Proof.
  unfold sglob. destruct (shas_dir s d).
  - rewrite filter_In. split.
    + intros [I P]. eapply Permutation_in in I; [|apply isort_perm]. apply filter_In in I. destruct I as [I E]. apply String.eqb_eq in E. auto.
    + intros [_ [I [E P]]]. split; auto. eapply Permutation_in; [apply Permutation_sym, isort_perm|]. apply filter_In. split; auto.
      apply String.eqb_eq; auto.
  - split; [intros []|intros [X _]; discriminate].
Qed.
Lemma sfind_in_inv kpath l req k p : sfind_in kpath l req = SFFound k p ->
  exists e, In e l /\ fst e = k /\ parse (snd e) = Some p /\ p_req p = req.
Proof.
  unfold sfind_in. destruct (String.eqb req ""); [discriminate|].
  destruct (filter _ _) as [|e r] eqn:F; [discriminate|].
  assert (I : In e (e :: r)) by (left; reflexivity). rewrite <- F in I. apply filter_In in I. destruct I as [I Q].
  apply in_rev in I. eapply Permutation_in in I; [|apply isort_perm].
  destruct (parse (snd e)) as [pl|] eqn:Pe; [|discriminate]. intros H. inversion H; subst. apply String.eqb_eq in Q.
  exists e. repeat split; auto.
Qed.

Lemma sload_first_inv (P : scache -> Prop) s l : (forall c e, In e l -> P c -> P (fst (sload_latest c s (fst e)))) ->
  forall c, P c -> P (fst (sload_first c s l)).
Proof.
  induction l as [|e l IH]; intros H c Pc; simpl; auto.
  pose proof (H c e (or_introl eq_refl) Pc) as Pc'. destruct (sload_latest c s (fst e)) as [c' [p|]]; simpl in *; [exact Pc'|].
  apply IH; [|exact Pc']. intros c0 e0 I0. apply H. right. exact I0.
Qed.
Lemma sload_upto_inv (P : scache -> Prop) s l : (forall c e, In e l -> P c -> P (fst (sload_latest c s (fst e)))) ->
  forall n c, P c -> P (fst (sload_upto c s l n)).
Proof.
  induction l as [|e l IH]; intros H n c Pc; simpl; auto. destruct n as [|n']; simpl; auto.
  assert (H' : forall c0 e0, In e0 l -> P c0 -> P (fst (sload_latest c0 s (fst e0)))) by (intros c0 e0 I0; apply H; right; exact I0).
  pose proof (H c e (or_introl eq_refl) Pc) as Pc'. destruct (sload_latest c s (fst e)) as [c' [p|]]; simpl in *.
  - specialize (IH H' n' c' Pc'). destruct (sload_upto c' s l n') as [c'' ps]. exact IH.
  - apply IH; auto.
Qed.

Lemma upd_key_keys k g l : map fst (upd_key k g l) = map fst l.
Proof.
  unfold upd_key. rewrite map_map. apply map_ext. intros e. destruct (skey_eqb k (fst e)) eqn:E; auto.
  apply skey_eqb_eq in E. auto.
Qed.
Lemma upd_key_comp k g1 g2 l : upd_key k g2 (upd_key k g1 l) = upd_key k (fun f => g2 (g1 f)) l.
Proof.
  unfold upd_key. rewrite map_map. apply map_ext. intros e. destruct (skey_eqb k (fst e)) eqn:E; simpl.
  - rewrite skey_eqb_refl. auto.
  - rewrite E. auto.
Qed.
Lemma upd_key_absent k g l : ~ In k (map fst l) -> upd_key k g l = l.
Proof.
  unfold upd_key. intros N. rewrite <- (map_id l) at 2. apply map_ext_in. intros e He.
  destruct (skey_eqb k (fst e)) eqn:E; auto. apply skey_eqb_eq in E. subst. exfalso. apply N. apply in_map. auto.
Qed.

Definition appends (cs : list chunk) (now : Z) (f : file) : file := fold_left (fun f c => append_chunk f c now) cs f.
Lemma run_appends k now cs : forall s,
  run_sprims s (map (fun c => SAppend k c now) cs) = {| sdirs := sdirs s; sfiles := upd_key k (appends cs now) (sfiles s) |}.
Proof.
  induction cs as [|c cs IH]; intros s; simpl.
  - unfold upd_key, appends. simpl. destruct s. simpl. f_equal. rewrite <- (map_id sfiles) at 1. apply map_ext.
    intros e. destruct (skey_eqb k (fst e)) eqn:E; auto. apply skey_eqb_eq in E. subst. destruct e; auto.
  - rewrite IH. simpl. f_equal. fold (upd_key k (fun f => append_chunk f c now) (sfiles s)).
    rewrite upd_key_comp. reflexivity.
Qed.

Lemma appends_status p now f : ftail f = TNone ->
  appends (chunks_of p) now f = {| items := items f ++ [Rec p]; ftail := TNone; mtime := now |}.
Proof.
  intros T. unfold chunks_of, appends. destruct (p_size p <? 4096)%Z; simpl; unfold append_chunk; simpl; rewrite T; reflexivity.
Qed.
Lemma parse_rec_snoc its p now : parse {| items := its ++ [Rec p]; ftail := TNone; mtime := now |} = Some p.
Proof. unfold parse. simpl. rewrite last_rec_app. reflexivity. Qed.

Definition csize (c : chunk) : Z :=
  match c with CLine p => p_size p + 1 | CJson p => p_size p | CNl => 1 | CPart n => n end.
Definition isum (l : list item) : Z := fold_right (fun i a => isize i + a)%Z 0%Z l.
Lemma fsize_sum f : fsize f = (isum (items f) + tsize (ftail f))%Z.
Proof. unfold fsize, isum. induction (items f); simpl; lia. Qed.
Lemma isum_app l x : isum (l ++ [x]) = (isum l + isize x)%Z.
Proof. unfold isum. induction l; simpl; lia. Qed.
Lemma fsize_append f c now : fsize (append_chunk f c now) = (fsize f + csize c)%Z.
Proof.
  rewrite !fsize_sum. unfold append_chunk. destruct c, (ftail f); simpl; rewrite ?isum_app; simpl; lia.
Qed.
Lemma fsize_appends cs now : forall f, fsize (appends cs now f) = (fsize f + fold_right (fun c a => csize c + a) 0 cs)%Z.
Proof.
  unfold appends. induction cs as [|c cs IH]; intros f; simpl; [lia|]. rewrite IH, fsize_append. lia.
Qed.
Lemma csize_chunks p : fold_right (fun c a => csize c + a)%Z 0%Z (chunks_of p) = (p_size p + 1)%Z.
Proof. unfold chunks_of. destruct (p_size p <? 4096)%Z; simpl; lia. Qed.

Lemma run_unlinks ks : forall s,
  run_sprims s (map SUnlink ks) = {| sdirs := sdirs s; sfiles := filter (fun e => negb (existsb (fun k => skey_eqb k (fst e)) ks)) (sfiles s) |}.
Proof.
  induction ks as [|k ks IH]; intros s; simpl.
  - rewrite filter_true. destruct s; auto.
  - rewrite IH. simpl. f_equal. rewrite filter_filter. apply filter_ext. intros e.
    destruct (skey_eqb k (fst e)); simpl; auto.
Qed.

Lemma rekey_dag d k : k_dag (rekey d k) = d.
Proof. reflexivity. Qed.
Lemma rekey_inj d k1 k2 : k_dag k1 = k_dag k2 -> rekey d k1 = rekey d k2 -> k1 = k2.
Proof. unfold rekey, mkkey. destruct k1, k2; simpl. intros E H. inversion H; subst. auto. Qed.

Definition rekey_in (d' : string) (ks : list skey) (l : list sent) : list sent :=
  map (fun e => if existsb (fun k => skey_eqb k (fst e)) ks then (rekey d' (fst e), snd e) else e) l.

(* by induction on ks: after the first rename the remaining keys are still in the store and their targets still absent, because the
   one new key has DAG d' and every remaining key and target is told apart from it by d <> d' or by rekey_inj *)
Lemma run_renames_gen d d' : d <> d' -> forall ks s,
  NoDup ks ->
  (forall k, In k ks -> In k (keys s) /\ k_dag k = d) ->
  (forall k, In k ks -> ~ In (rekey d' k) (keys s)) ->
  run_sprims s (map (fun k => SRename k (rekey d' k)) ks) = {| sdirs := sdirs s; sfiles := rekey_in d' ks (sfiles s) |}.
Proof.
  intros Nd. induction ks as [|k ks IH]; intros s NDks P F; simpl.
  - unfold rekey_in. simpl. rewrite map_id. destruct s; auto.
  - destruct (P k) as [Pk Dk]; simpl; auto.
    assert (HK : shas s k = true) by (apply shas_true; auto). rewrite HK.
    assert (NE : skey_eqb k (rekey d' k) = false).
    { apply skey_eqb_neq. intro E. apply Nd. rewrite <- Dk. rewrite E. reflexivity. }
    rewrite NE.
    assert (FK : filter (fun e => negb (skey_eqb (rekey d' k) (fst e))) (sfiles s) = sfiles s).
    { rewrite <- (filter_true (sfiles s)) at 2. apply filter_ext_in. intros e He.
      destruct (skey_eqb (rekey d' k) (fst e)) eqn:E; auto. apply skey_eqb_eq in E.
      exfalso. apply (F k); simpl; auto. rewrite E. apply in_map. auto. }
    rewrite FK.
    set (s1 := {| sdirs := sdirs s; sfiles := map (fun e => if skey_eqb k (fst e) then (rekey d' k, snd e) else e) (sfiles s) |}).
    assert (K1 : forall x, In x (keys s1) -> x = rekey d' k \/ (In x (keys s) /\ x <> k)).
    { intros x Hx. unfold keys, s1 in Hx. simpl in Hx. rewrite map_map in Hx. apply in_map_iff in Hx.
      destruct Hx as [e [E I]]. destruct (skey_eqb k (fst e)) eqn:E2; simpl in E; subst; auto.
      right. split. { apply in_map; auto. } apply skey_eqb_neq in E2. auto. }
    assert (K2 : forall x, In x (keys s) -> x <> k -> In x (keys s1)).
    { intros x Hx Nx. unfold keys in *. apply in_map_iff in Hx. destruct Hx as [e [E I]]. subst.
      unfold s1. simpl. rewrite map_map. apply in_map_iff. exists e. split; auto.
      destruct (skey_eqb k (fst e)) eqn:E2; auto. apply skey_eqb_eq in E2. congruence. }
    inversion NDks as [|? ? NKk NDks']; subst.
    rewrite (IH s1); auto.
    + unfold s1, rekey_in. simpl. f_equal. rewrite map_map. apply map_ext_in. intros e He.
      destruct (skey_eqb k (fst e)) eqn:E; simpl.
      * apply skey_eqb_eq in E.
        assert (X : existsb (fun k0 => skey_eqb k0 (rekey d' k)) ks = false).
        { apply not_true_is_false. intro X. apply existsb_exists in X. destruct X as [k2 [I2 E2]].
          apply skey_eqb_eq in E2. destruct (P k2) as [_ D2]; simpl; auto. apply Nd. rewrite <- D2, E2. reflexivity. }
        rewrite X. subst k. reflexivity.
      * reflexivity.
    + intros k2 I2. destruct (P k2) as [P2 D2]; simpl; auto. split; auto. apply K2; auto. intro; subst. contradiction.
    + intros k2 I2 X. apply K1 in X. destruct X as [X|[X _]].
      * apply rekey_inj in X. { subst. contradiction. } destruct (P k2) as [_ D2]; simpl; auto; try congruence.
      * apply (F k2); simpl; auto.
Qed.

(* writer.open: on a file without a torn tail (every file of a crash-free state) it is mkdir + create *)
Lemma sopen_fresh s k now : ~ In k (keys s) -> sopen s k now = [SMkdir (k_dag k); SCreate k now].
Proof. intros N. unfold sopen. rewrite (proj2 (sget_none s k) N). reflexivity. Qed.
Lemma sopen_clean s k f now : sget s k = Some f -> ftail f = TNone -> sopen s k now = [SMkdir (k_dag k); SCreate k now].
Proof. intros G T. unfold sopen. rewrite G, T. reflexivity. Qed.
Lemma sopen_torn s k f now : sget s k = Some f -> ftail f <> TNone -> sopen s k now = [SMkdir (k_dag k); SCreate k now; SAppend k CNl now].
Proof. intros G T. unfold sopen. rewrite G. destruct (ftail f); try reflexivity. congruence. Qed.

(* the steps of the compaction (eb925d1): remove a stale temporary copy, write the copy, publish it with a rename *)
Lemma unlink_absent s k : ~ In k (keys s) -> run_sprim s (SUnlink k) = s.
Proof.
  intros N. simpl. destruct s as [ds fs]. simpl in *. f_equal.
  transitivity (filter (fun _ : sent => true) fs); [|apply filter_true]. apply filter_ext_in. intros e Ie.
  destruct (skey_eqb k (fst e)) eqn:E; auto. apply skey_eqb_eq in E. subst k. exfalso. apply N. unfold keys. simpl. apply in_map. auto.
Qed.
Lemma tmpk_neq k : k_tmp k = false -> tmpk k <> k.
Proof. intros T E. assert (X : k_tmp (tmpk k) = k_tmp k) by (rewrite E; reflexivity). simpl in X. congruence. Qed.
Lemma tmpk_absent s k : (forall e, In e (sfiles s) -> k_tmp (fst e) = false) -> ~ In (tmpk k) (keys s).
Proof.
  intros P I. unfold keys in I. apply in_map_iff in I. destruct I as [e [E Ie]]. specialize (P e Ie). rewrite E in P. discriminate.
Qed.
Lemma rename_rest kt kc (fs : list sent) : ~ In kt (map fst fs) -> ~ In kc (map fst fs) ->
  map (fun e : sent => if skey_eqb kt (fst e) then (kc, snd e) else e) (filter (fun e : sent => negb (skey_eqb kc (fst e))) fs) = fs.
Proof.
  induction fs as [|e fs IH]; simpl; intros Nt Nc; auto.
  assert (E1 : skey_eqb kc (fst e) = false) by (apply skey_eqb_neq; intro X; apply Nc; auto).
  assert (E2 : skey_eqb kt (fst e) = false) by (apply skey_eqb_neq; intro X; apply Nt; auto).
  rewrite E1. simpl. rewrite E2. f_equal. apply IH; auto.
Qed.
Lemma rename_last ds fs kt kc f : ~ In kt (map fst fs) -> ~ In kc (map fst fs) -> kt <> kc ->
  run_sprim {| sdirs := ds; sfiles := fs ++ [(kt, f)] |} (SRename kt kc) = {| sdirs := ds; sfiles := fs ++ [(kc, f)] |}.
Proof.
  intros Nt Nc Ne. cbn [run_sprim].
  assert (HS : shas {| sdirs := ds; sfiles := fs ++ [(kt, f)] |} kt = true).
  { apply shas_true. unfold keys. cbn [sfiles]. rewrite map_app. apply in_or_app. right. simpl. auto. }
  rewrite HS. apply skey_eqb_neq in Ne. rewrite Ne. cbn [sdirs sfiles]. f_equal.
  rewrite filter_app, map_app. f_equal.
  - apply rename_rest; auto.
  - simpl. rewrite (skey_eqb_sym kc kt), Ne. simpl. rewrite skey_eqb_refl. reflexivity.
Qed.
