(* Property C07 on the string-level model (stated in Props/C07.v): what a FRESH process is answered on the directory that survives
   a kill of the recording process at any point of any operation applied to any reachable state.  crash_states (Model.v) = every
   prefix of the operation's primitive FS steps + every torn last append; they are the renderings of the structured crash states
   (ProofsString.crash_states_render; crash_l1), and ProofsCrash.v says what those answer: the run map before or after an atomic
   operation (since eb925d1 Close too) - also once a new process has recorded a status update on what the kill left (32b069b) - and
   for retention / rename the run map with some of the runs removed / moved. *)
From Coq Require Import List String Ascii Bool Arith ZArith Lia Permutation.
Import ListNotations.
From BD.Hist Require Import GoMatch Model SModel Spec ProofsLib ProofsStore ProofsString ProofsRefine ProofsCache ProofsSpec ProofsTop ProofsC06 ProofsCrash.
Open Scope string_scope.
Open Scope list_scope.

Section C.
Variable loc : string.
Variable dirhash : string -> string.
Variable D : list string.
Variable days : list string.
Variable K : list skey.
Hypothesis OK : names_okb loc dirhash D days K = true.
Hypothesis KC : closedb D K = true.

(* the suffix 0 marks what is about the string-level model (L0, Model.v); the same name without it in ProofsCrash.v is the statement
   about the structured model (L1, SModel.v) it is transferred from; `_full` = all queries, as opposed to the P1 consequence for
   lookups by request id *)
Definition answers0 (fs' : fs) (H : hist) : Prop :=
  forall d, In d D ->
    (forall req, fpayload (q_find loc dirhash fs' d req) = sp_find H d req)
    /\ (forall day, (match day with Some x => In x days | None => True end) -> snd (q_latest loc dirhash [] fs' d day) = sp_latest H d day)
    /\ (forall n, snd (q_recent loc dirhash [] fs' d n) = sp_recent H d n).

Lemma evs_okb_snoc es e : forall ys H, evs_okb loc dirhash ys H (es ++ [e]) = true ->
  evs_okb loc dirhash ys H es = true
  /\ (match e with
      | EOp o => op_okb (ys_h (fold_left (ysstep loc dirhash) es ys)) (ys_seen (fold_left (ysstep loc dirhash) es ys)) o
                 && hist_okb (sp_apply (fold_left (fun H e => fst (sp_step H e)) es H) o)
      | _ => true end = true).
Proof.
  induction es as [|x es IH]; intros ys H P; simpl in *.
  - rewrite andb_true_r in P. auto.
  - apply andb_prop in P. destruct P as [P1 P2]. destruct (IH _ _ P2) as [A B]. rewrite P1, A. auto.
Qed.

Lemma crash_l1 es o fs' : premises loc dirhash D days K (es ++ [EOp o]) ->
  In fs' (crash_states loc dirhash (y_h (yrun loc dirhash sys_init es)) o) ->
  exists h L seen s', state_in D K h /\ op_in D K o /\ R2 h (sp_state es) L /\ hist_okb (sp_state es) = true
    /\ incl (keys (sst h)) seen /\ op_okb h seen o = true /\ hist_okb (sp_apply (sp_state es) o) = true
    /\ sp_state (es ++ [EOp o]) = sp_apply (sp_state es) o
    /\ In s' (scrash_states rname (rpath loc dirhash) h o) /\ fs' = render_fs dirhash s' /\ keys_in D K s' /\ dirs_nodup s'.
Proof.
  intros [F P] IN. apply Forall_app in F. destruct F as [F1 F2]. inversion F2 as [|? ? Oin _]; subst.
  destruct (evs_okb_snoc es (EOp o) _ _ P) as [A B]. apply andb_prop in B. destruct B as [B1 B2].
  destruct (reach_inv loc dirhash D days K OK KC es (conj F1 A)) as [Ih _ Iin _ [L R] Iok Iseen _ _].
  rewrite Ih, (crash_states_render loc dirhash D days K OK KC o _ Iin Oin) in IN. apply in_map_iff in IN. destruct IN as [s' [E IN]].
  pose proof Iin as [KI [ND _]].
  destruct (scrash_in D K _ _ s' KI ND (sprims_in loc dirhash D days K OK KC o _ Iin Oin) IN) as [KI' ND'].
  rewrite sp_state_snoc. exists (ys_h (fold_left (ysstep loc dirhash) es ysys_init)), L, (ys_seen (fold_left (ysstep loc dirhash) es ysys_init)), s'.
  exact (conj Iin (conj Oin (conj R (conj Iok (conj Iseen (conj B1 (conj B2 (conj eq_refl (conj IN (conj (eq_sym E) (conj KI' ND'))))))))))).
Qed.

Lemma answers_render s H : keys_in D K s -> dirs_nodup s -> answers_as rname (rpath loc dirhash) s H -> answers0 (render_fs dirhash s) H.
Proof.
  intros KI ND A d Id. destruct (fresh_answers_render loc dirhash D days K OK s d KI ND Id) as [A1 [A2 A3]]. destruct (A d) as [B1 [B2 B3]].
  split; [|split].
  - intros req. rewrite A1. rewrite <- B1. destruct (sq_find rname (rpath loc dirhash) s d req); reflexivity.
  - intros day Dy. rewrite A2 by auto. apply B2.
  - intros n. rewrite A3. apply B3.
Qed.

Definition fresh_state (fs' : fs) : hstate := {| hfs := fs'; hwr := None; hcache := [] |}.
Lemma fresh_update_render s d req tag size now : keys_in D K s -> dirs_nodup s -> In d D ->
  let u := OUpdate d req tag size now in
  let s2 := sst (sapply rname (rpath loc dirhash) (dead s) u) in
  hfs (apply loc dirhash (fresh_state (render_fs dirhash s)) u) = render_fs dirhash s2 /\ keys_in D K s2 /\ dirs_nodup s2.
Proof.
  intros KI ND Id u s2.
  assert (SD : state_in D K (dead s)). { split; auto. split; auto. split; [intros e []|exact Logic.I]. }
  destruct (apply_render loc dirhash D days K OK KC u (dead s) SD Id) as [AR [KI2 [ND2 _]]].
  change (fresh_state (render_fs dirhash s)) with (render_state dirhash (dead s)). rewrite AR. auto.
Qed.
Lemma twin_lt h : state_in D K h -> forall w, swr h = Some w ->
  String.ltb (rpath loc dirhash (sw_key w)) (rpath loc dirhash (twin (sw_key w))) = true.
Proof.
  intros [_ [_ [_ WI]]] w EW. unfold wr_in in WI. rewrite EW in WI. destruct WI as [W1 [[W2 W3] _]].
  apply (nk_twin_lt loc dirhash D days K OK); auto.
Qed.

(* open / write / close (compaction, since eb925d1) / update / chtimes are atomic under a kill: every crash state answers every
   query as the run map BEFORE or AFTER the operation *)
Definition atomic_op (o : op) : bool :=
  match o with OOpen _ _ _ _ | OWrite _ _ _ | OClose _ | OUpdate _ _ _ _ _ | OTouch _ _ _ _ _ => true | _ => false end.

Lemma crash_state_crel es o fs' : premises loc dirhash D days K (es ++ [EOp o]) -> atomic_op o = true ->
  In fs' (crash_states loc dirhash (y_h (yrun loc dirhash sys_init es)) o) ->
  exists s', fs' = render_fs dirhash s' /\ keys_in D K s' /\ dirs_nodup s'
    /\ hist_okb (sp_state es) = true /\ hist_okb (sp_state (es ++ [EOp o])) = true
    /\ (crel (rpath loc dirhash) s' (sp_state es) \/ crel (rpath loc dirhash) s' (sp_state (es ++ [EOp o]))).
Proof.
  intros P AO IN. destruct (crash_l1 es o fs' P IN) as [h [L [seen [s' [Iin [_ [R [Iok [Iseen [Ook [Ohk [ES [IN' [E [KI' ND']]]]]]]]]]]]]]].
  rewrite ES. exists s'. do 5 (split; [assumption|]).
  apply (crash_crel rname (rpath loc dirhash) h _ L seen); auto. { apply twin_lt, Iin. } destruct o; try discriminate; exact Logic.I.
Qed.

Theorem crash_atomic es o fs' : premises loc dirhash D days K (es ++ [EOp o]) -> atomic_op o = true ->
  In fs' (crash_states loc dirhash (y_h (yrun loc dirhash sys_init es)) o) ->
  answers0 fs' (sp_state es) \/ answers0 fs' (sp_state (es ++ [EOp o])).
Proof.
  intros P AO IN. destruct (crash_state_crel es o fs' P AO IN) as [s' [E [KI' [ND' [O [O' [X|X]]]]]]]; subst fs'; [left|right];
    apply answers_render; auto; apply crel_answers; auto.
Qed.

(* a status update recorded by a NEW process after a kill inside any atomic operation: whatever the kill left - torn tails, the temporary
   copy of a compaction, the compacted copy next to its original - the store then answers every query as the run map in which that
   update is recorded, on top of the run map before or after the interrupted operation *)
Theorem update_after_crash0 es o fs' d req tag size now : premises loc dirhash D days K (es ++ [EOp o]) -> atomic_op o = true ->
  In fs' (crash_states loc dirhash (y_h (yrun loc dirhash sys_init es)) o) -> In d D ->
  let u := OUpdate d req tag size now in
  let fs2 := hfs (apply loc dirhash (fresh_state fs') u) in
  answers0 fs2 (sp_apply (sp_state es) u) \/ answers0 fs2 (sp_apply (sp_state (es ++ [EOp o])) u).
Proof.
  intros P AO IN Id u fs2. destruct (crash_state_crel es o fs' P AO IN) as [s' [E [KI' [ND' [O [O' X]]]]]]. subst fs'.
  destruct (fresh_update_render s' d req tag size now KI' ND' Id) as [F2 [KI2 ND2]]. unfold fs2, u. rewrite F2.
  destruct X as [X|X]; [left|right]; apply answers_render; auto; apply crel_update_answers; auto.
Qed.

(* retention, in full: every crash state answers EVERY query as the run map in which some of the runs that are up for removal are
   already gone (and nothing else has changed) *)
Theorem crash_removeold_full0 es d cutoff fs' : premises loc dirhash D days K (es ++ [EOp (ORemoveOld d cutoff)]) ->
  In fs' (crash_states loc dirhash (y_h (yrun loc dirhash sys_init es)) (ORemoveOld d cutoff)) ->
  exists H', answers0 fs' H' /\ hist_okb H' = true
    /\ (forall a, In a (h_runs H') -> In a (h_runs (sp_state es)))
    /\ (forall a, In a (h_runs (sp_state es)) -> ~ (a_dag a = d /\ (a_mtime a < cutoff)%Z) -> In a (h_runs H'))
    /\ NoDup (map a_id (h_runs H')).
Proof.
  intros P IN. destruct (crash_l1 es _ fs' P IN) as [h [L [seen [s' [_ [_ [R [Iok [_ [_ [_ [_ [IN' [E [KI' ND']]]]]]]]]]]]]]]. subst fs'.
  destruct (crash_removeold_full rname (rpath loc dirhash) _ _ L d cutoff s' R Iok IN') as [H' [A B]].
  exists H'. split; auto. apply answers_render; auto.
Qed.

(* rename, in full: every crash state answers EVERY query as the run map in which some of the runs of d already belong to d' *)
Theorem crash_rename_full0 es d d' fs' : premises loc dirhash D days K (es ++ [EOp (ORename d d')]) ->
  In fs' (crash_states loc dirhash (y_h (yrun loc dirhash sys_init es)) (ORename d d')) ->
  exists H', answers0 fs' H' /\ hist_okb H' = true
    /\ exists l, Permutation l (h_runs (sp_state es)) /\ Forall2 (rrel d d') l (h_runs H').
Proof.
  intros P IN. destruct (crash_l1 es _ fs' P IN) as [h [L [seen [s' [_ [_ [R [_ [Iseen [Ook [Ohk [_ [IN' [E [KI' ND']]]]]]]]]]]]]]]. subst fs'.
  destruct (crash_rename_full rname (rpath loc dirhash) _ _ L _ d d' s' R Iseen Ook Ohk IN') as [H' [A B]].
  exists H'. split; auto. apply answers_render; auto.
Qed.
(* ... its P1 consequence: a run of another DAG is found intact, and a run of the renamed DAG is found intact under exactly one of
   the old and the new name *)
Theorem crash_rename0 es d d' fs' : premises loc dirhash D days K (es ++ [EOp (ORename d d')]) ->
  In fs' (crash_states loc dirhash (y_h (yrun loc dirhash sys_init es)) (ORename d d')) ->
  forall a, In a (h_runs (sp_state es)) -> In (a_dag a) D -> a_req a <> "" ->
    (a_dag a <> d -> fpayload (q_find loc dirhash fs' (a_dag a) (a_req a)) = last_opt (a_sts a))
    /\ (a_dag a = d ->
         (fpayload (q_find loc dirhash fs' d (a_req a)) = last_opt (a_sts a) /\ fpayload (q_find loc dirhash fs' d' (a_req a)) = None)
         \/ (fpayload (q_find loc dirhash fs' d (a_req a)) = None /\ fpayload (q_find loc dirhash fs' d' (a_req a)) = last_opt (a_sts a))).
Proof.
  intros P IN a Ia Id Nr. destruct (crash_rename_full0 es d d' fs' P IN) as [H' [A [O' [l [Pl F]]]]].
  destruct (crash_l1 es _ fs' P IN) as [h [L [seen [s' [_ [[Od Od'] [R [_ [_ [Ook [Ohk _]]]]]]]]]]].
  destruct (rename_P1 _ H' d d' l a (rename_okb_neq _ _ _ _ Ook) Ohk O' (r_ids R) Pl F Ia Nr) as [B1 B2].
  destruct (A _ Id) as [A0 _], (A _ Od) as [A1 _], (A _ Od') as [A2 _]. rewrite A1, A2. split; [rewrite A0|]; auto.
Qed.

End C.
