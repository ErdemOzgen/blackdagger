(* L0 ~ L1: the string-level model of the history store (Model.v) run on the RENDERING of a structured store equals the
   rendering of the structured model (SModel.v), operation by operation and query by query, under the decidable per-path
   premises names_okb (dag_okb for the DAG paths D and days, key_okb for the file keys K a history uses).
   Before the repairs 8ffc003 / e6d6379 names with glob metacharacters or stamp-like substrings falsified these premises
   (F6b / F6c); on the repaired code they satisfy them (Examples in ProofsC06Ex.v).
   No string reasoning happens beyond these premises (and replace1 on a prefix). *)
From Coq Require Import List String Ascii Bool Arith ZArith Lia Permutation.
Import ListNotations.
From BD.Hist Require Import GoMatch Model SModel ProofsLib ProofsStore.
Open Scope string_scope.

(* writer.open on both levels stays folded under simpl (also in the files that import this one): its steps are related as a
   whole by wopen_render, and unfolded it is a match on the file's tail inside every goal that mentions an operation *)
Arguments wopen : simpl never.
Arguments sopen : simpl never.

Lemma filter_map_in {A B} (f : A -> B) p q l : (forall x, In x l -> p (f x) = q x) -> filter p (map f l) = map f (filter q l).
Proof. intros H. rewrite filter_map_comm. f_equal. apply filter_ext_in, H. Qed.
Lemma existsb_map_in {A B} (f : A -> B) p q l : (forall x, In x l -> p (f x) = q x) -> existsb p (map f l) = existsb q l.
Proof. intros H. rewrite existsb_map'. apply existsb_ext_in', H. Qed.

Section R.
Variable loc : string.
Variable dirhash : string -> string.

Definition rdir (d : string) : string := dirname dirhash d.
Definition rname (k : skey) : string := fname (k_dag k) (k_stamp k) (k_r8 k) (k_c k) ++ (if k_tmp k then ".tmp" else "").
Definition rpath (k : skey) : string := fpath loc (rdir (k_dag k)) (rname k).
Definition render_ent (e : sent) : fent := (rdir (k_dag (fst e)), rname (fst e), snd e).
Definition render_fs (s : sfs) : fs := {| dirs := map rdir (sdirs s); files := map render_ent (sfiles s) |}.
Definition render_prim (p : sprim) : prim :=
  match p with
  | SMkdir d => PMkdir (rdir d)
  | SCreate k now => PCreate (rdir (k_dag k)) (rname k) now
  | SAppend k c now => PAppend (rdir (k_dag k)) (rname k) c now
  | SUnlink k => PUnlink (rdir (k_dag k)) (rname k)
  | SRename k k' => PRename (rdir (k_dag k)) (rname k) (rdir (k_dag k')) (rname k')
  | SRmdir d => PRmdir (rdir d)
  | STouch k t => PTouch (rdir (k_dag k)) (rname k) t
  end.
Definition render_cache (c : scache) : cache := map (fun e => (rdir (k_dag (fst e)), rname (fst e), snd e)) c.
Definition render_fd (k : skey) : string * string := (rdir (k_dag k), rname k).
Definition render_wr (w : swriter) : writer :=
  {| w_dir := rdir (k_dag (sw_key w)); w_name := rname (sw_key w); w_fd := option_map render_fd (sw_fd w); w_req := sw_req w |}.
Definition render_state (h : sstate) : hstate :=
  {| hfs := render_fs (sst h); hwr := option_map render_wr (swr h); hcache := render_cache (scch h) |}.

Definition rdirpat (d : string) : string := dirpat dirhash d.     (* the escaped directory name, as it stands in the glob patterns *)
Definition pat_ok (d pat : string) : bool :=
  match go_match (loc ++ "/" ++ rdirpat d ++ "/" ++ pat) "" with Some _ => true | None => false end.
Definition obool_eqb (a : option bool) (b : bool) : bool :=
  match a with Some x => Bool.eqb x b | None => false end.
(* how Glob finds the directory of d: without metacharacters in the (escaped) directory pattern by name - the pattern then is the
   name itself; with metacharacters (i.e. escapes) by matching the pattern against every directory: it must match its own only *)
Definition dirsel_okb (D : list string) (d : string) : bool :=
  if has_meta (rdirpat d)
  then match go_match (loc ++ "/" ++ rdirpat d) "" with Some _ => true | None => false end
       && forallb (fun d' => obool_eqb (go_match (rdirpat d) (rdir d')) (String.eqb d d')) D
  else String.eqb (rdirpat d) (rdir d).
Definition dag_okb (D : list string) (days : list string) (d : string) : bool :=
  dirsel_okb D d
  && pat_ok d (pat_all d) && pat_ok d (pat_latest d None)
  && forallb (fun day => pat_ok d (pat_latest d (Some day))) days
  && forallb (fun d' => implb (String.eqb (rdir d) (rdir d')) (String.eqb d d')) D
  && String.eqb (add_yaml d) d.     (* AddYamlExtension, which Rename applies, is the identity on d *)
(* dropCompacted on rendered paths is dropCompacted on keys: only a compacted key's path ends in _c.dat, and the path it
   stands for is the path of the uncompacted key it is the twin of *)
Definition orig_okb (K : list skey) (m : skey) : bool :=
  match orig_of (rpath m) with
  | Some o => k_c m && forallb (fun k => Bool.eqb (String.eqb o (rpath k)) (negb (k_c k) && negb (k_tmp k) && skey_eqb (twin k) m)) K
  | None => negb (k_c m)
  end.
Definition key_okb (D : list string) (days : list string) (K : list skey) (k : skey) : bool :=
  existsb (String.eqb (k_dag k)) D
  && obool_eqb (go_match (pat_all (k_dag k)) (rname k)) (in_patk PAll k)
  && obool_eqb (go_match (pat_latest (k_dag k) None) (rname k)) (in_patk (PLatest None) k)
  && forallb (fun day => obool_eqb (go_match (pat_latest (k_dag k) (Some day)) (rname k)) (in_patk (PLatest (Some day)) k)) days
  && (k_tmp k || String.eqb (find_ts (rpath k)) (k_stamp k))
  && forallb (fun k' => implb (String.eqb (rname k) (rname k') && String.eqb (k_dag k) (k_dag k')) (skey_eqb k k')) K
  && (k_c k || k_tmp k || String.eqb (trim_ext (rname k) ++ "_c.dat") (rname (twin k)))
  && (k_tmp k || orig_okb K k)
  && (k_c k || k_tmp k || String.ltb (rpath k) (rpath (twin k))).
Definition names_okb (D : list string) (days : list string) (K : list skey) : bool :=
  forallb (dag_okb D days) D && forallb (key_okb D days K) K.

Section U.
Variable D : list string.
Variable days : list string.
Variable K : list skey.
Hypothesis OK : names_okb D days K = true.

Lemma names_ok : (forall d, In d D -> dag_okb D days d = true) /\ (forall k, In k K -> key_okb D days K k = true).
Proof. unfold names_okb in OK. rewrite andb_true_iff, !forallb_forall in OK. exact OK. Qed.
Lemma obool_eqb_true a b : obool_eqb a b = true -> a = Some b.
Proof. destruct a; simpl; intros H; try discriminate. apply Bool.eqb_prop in H. subst. auto. Qed.

Definition pat_of (d : string) (pk : patk) : string :=
  match pk with PAll => pat_all d | PLatest day => pat_latest d day end.
Definition pk_in (pk : patk) : Prop := match pk with PLatest (Some day) => In day days | _ => True end.

Lemma dag_facts d : In d D ->
  dirsel_okb D d = true /\ pat_ok d (pat_all d) = true /\ pat_ok d (pat_latest d None) = true
  /\ (forall day, In day days -> pat_ok d (pat_latest d (Some day)) = true)
  /\ (forall d', In d' D -> rdir d = rdir d' -> d = d') /\ add_yaml d = d.
Proof.
  intros H. pose proof (proj1 names_ok d H) as A. unfold dag_okb in A. rewrite !andb_true_iff, !forallb_forall in A.
  destruct A as [[[[[A1 A2] A3] A4] A5] A6]. repeat split; auto.
  - intros d' I E. specialize (A5 d' I). rewrite E, String.eqb_refl in A5. apply String.eqb_eq, A5.
  - apply String.eqb_eq, A6.
Qed.
Lemma key_facts k : In k K ->
  In (k_dag k) D
  /\ (forall pk, pk_in pk -> go_match (pat_of (k_dag k) pk) (rname k) = Some (in_patk pk k))
  /\ (k_tmp k = false -> find_ts (rpath k) = k_stamp k)
  /\ (forall k', In k' K -> rname k = rname k' -> k_dag k = k_dag k' -> k = k')
  /\ (k_c k = false -> k_tmp k = false -> trim_ext (rname k) ++ "_c.dat" = rname (twin k))
  /\ (k_tmp k = false -> orig_okb K k = true)
  /\ (k_c k = false -> k_tmp k = false -> String.ltb (rpath k) (rpath (twin k)) = true).
Proof.
  intros H. pose proof (proj2 names_ok k H) as A. unfold key_okb in A. rewrite !andb_true_iff, !forallb_forall in A.
  destruct A as [[[[[[[[A1 A2] A3] A4] A5] A6] A7] A8] A9]. repeat split.
  - apply existsb_exists in A1. destruct A1 as [x [I E]]. apply String.eqb_eq in E. subst. exact I.
  - intros [|[day|]] P; apply obool_eqb_true; simpl in *; auto.
  - intros T. rewrite T in A5. apply String.eqb_eq, A5.
  - intros k' I E1 E2. specialize (A6 k' I). rewrite E1, E2, !String.eqb_refl in A6. apply skey_eqb_eq, A6.
  - intros C T. rewrite C, T in A7. apply String.eqb_eq, A7.
  - intros T. rewrite T in A8. exact A8.
  - intros C T. rewrite C, T in A9. exact A9.
Qed.

Lemma nk_dir_inj d d' : In d D -> In d' D -> rdir d = rdir d' -> d = d'.
Proof. intros H. apply (dag_facts d H). Qed.
Lemma nk_dir_eqb d d' : In d D -> In d' D -> String.eqb (rdir d) (rdir d') = String.eqb d d'.
Proof.
  intros H H'. destruct (String.eqb_spec d d') as [<-|NE]. { apply String.eqb_refl. }
  apply String.eqb_neq. intro N. apply NE, nk_dir_inj; auto.
Qed.
Lemma nk_yaml d : In d D -> add_yaml d = d.
Proof. intros H. apply (dag_facts d H). Qed.
Lemma nk_dag k : In k K -> In (k_dag k) D.
Proof. intros H. apply (key_facts k H). Qed.
Lemma nk_scan k : In k K -> k_tmp k = false -> find_ts (rpath k) = k_stamp k.
Proof. intros H. apply (key_facts k H). Qed.
Lemma nk_inj k k' : In k K -> In k' K -> rname k = rname k' -> k_dag k = k_dag k' -> k = k'.
Proof. intros H. apply (key_facts k H). Qed.
Lemma nk_twin k : In k K -> k_c k = false -> k_tmp k = false -> trim_ext (rname k) ++ "_c.dat" = rname (twin k).
Proof. intros H. apply (key_facts k H). Qed.
(* the compacted copy's path is the larger one: FindByRequestID, which scans the matches in reverse order, meets it first *)
Lemma nk_twin_lt k : In k K -> k_c k = false -> k_tmp k = false -> String.ltb (rpath k) (rpath (twin k)) = true.
Proof. intros H. apply (key_facts k H). Qed.
Lemma rname_plain d st r c : rname (mkkey d st r c) = fname d st r c.
Proof. unfold rname. simpl. apply app_empty_r. Qed.
Lemma rname_tmpk k : k_tmp k = false -> rname (tmpk k) = rname k ++ ".tmp".
Proof. intros T. unfold rname. simpl. rewrite T, app_empty_r. reflexivity. Qed.
Lemma nk_orig m k : In m K -> In k K -> k_tmp m = false -> k_tmp k = false ->
  match orig_of (rpath m) with Some o => String.eqb o (rpath k) | None => false end = negb (k_c k) && skey_eqb (twin k) m.
Proof.
  intros Hm Hk Tm Tk. destruct (key_facts m Hm) as [_ [_ [_ [_ [_ [O _]]]]]]. specialize (O Tm). unfold orig_okb in O.
  destruct (orig_of (rpath m)) as [o|].
  - apply andb_prop in O. destruct O as [_ O]. rewrite forallb_forall in O. specialize (O k Hk). apply Bool.eqb_prop in O.
    rewrite O, Tk, andb_true_r. reflexivity.
  - apply negb_true_iff in O. destruct (skey_eqb_spec (twin k) m) as [<-|]; [discriminate|]. symmetry. apply andb_false_r.
Qed.

Lemma render_key_eqb k k' : In k K -> In k' K ->
  (String.eqb (rdir (k_dag k)) (rdir (k_dag k')) && String.eqb (rname k) (rname k'))%bool = skey_eqb k k'.
Proof.
  intros H H'. destruct (skey_eqb_spec k k') as [<-|NE]. { rewrite !String.eqb_refl. reflexivity. }
  apply not_true_is_false. intro E. apply andb_prop in E. destruct E as [E1 E2]. apply String.eqb_eq in E1, E2.
  apply NE, nk_inj; auto. apply nk_dir_inj; auto using nk_dag.
Qed.
Lemma filter_render {V} (h : bool -> bool) k (l : list (skey * V)) : In k K -> (forall e, In e l -> In (fst e) K) ->
  filter (fun e : string * string * V => h (String.eqb (fst (fst e)) (rdir (k_dag k)) && String.eqb (snd (fst e)) (rname k)))
         (map (fun e => (rdir (k_dag (fst e)), rname (fst e), snd e)) l)
  = map (fun e => (rdir (k_dag (fst e)), rname (fst e), snd e)) (filter (fun e => h (skey_eqb k (fst e))) l).
Proof.
  intros H KI. apply filter_map_in. intros e He. cbn [fst snd]. rewrite render_key_eqb, skey_eqb_sym; auto.
Qed.
Lemma is_at_render k e : In k K -> In (fst e) K -> is_at (rdir (k_dag k)) (rname k) (render_ent e) = skey_eqb k (fst e).
Proof. intros H H'. rewrite skey_eqb_sym. apply render_key_eqb; auto. Qed.

Definition keys_in (s : sfs) : Prop := (forall e, In e (sfiles s) -> In (fst e) K) /\ (forall d, In d (sdirs s) -> In d D).
Definition dirs_nodup (s : sfs) : Prop := NoDup (sdirs s).

Lemma alook_render {V} k (l : list (skey * V)) : In k K -> (forall e, In e l -> In (fst e) K) ->
  match filter (fun e : string * string * V => String.eqb (fst (fst e)) (rdir (k_dag k)) && String.eqb (snd (fst e)) (rname k))
               (map (fun e => (rdir (k_dag (fst e)), rname (fst e), snd e)) l)
  with e :: _ => Some (snd e) | [] => None end = alook l k.
Proof. intros H KI. rewrite (filter_render (fun b => b)) by auto. unfold alook. destruct (filter _ l); reflexivity. Qed.
Lemma get_render s k : keys_in s -> In k K -> get_file (render_fs s) (rdir (k_dag k)) (rname k) = sget s k.
Proof. intros [KI _] H. exact (alook_render k (sfiles s) H KI). Qed.
Lemma has_render s k : keys_in s -> In k K -> has_file (render_fs s) (rdir (k_dag k)) (rname k) = shas s k.
Proof. intros. unfold has_file, shas. rewrite get_render; auto. Qed.
Lemma has_dir_render s d : keys_in s -> In d D -> has_dir (render_fs s) (rdir d) = shas_dir s d.
Proof. intros [_ DI] H. apply existsb_map_in. intros x Hx. apply nk_dir_eqb; auto. Qed.
Lemma dir_empty_render s d : keys_in s -> In d D -> dir_empty (render_fs s) (rdir d) = sdir_empty s d.
Proof.
  intros [KI _] H. unfold dir_empty, sdir_empty. f_equal. apply existsb_map_in. intros e He. apply nk_dir_eqb; auto using nk_dag.
Qed.

Definition prim_in (p : sprim) : Prop :=
  match p with
  | SMkdir d | SRmdir d => In d D
  | SCreate k _ | SAppend k _ _ | SUnlink k | STouch k _ => In k K
  | SRename k k' => In k K /\ In k' K
  end.

Lemma keys_in_run_sprim s p : keys_in s -> prim_in p -> keys_in (run_sprim s p).
Proof.
  intros [KI DI] P. destruct p; simpl in *.
  - destruct (shas_dir s d); split; auto. simpl. intros x Hx. apply in_app_or in Hx. destruct Hx as [|[|[]]]; subst; auto.
  - destruct (shas s k); split; auto. simpl. intros x Hx. apply in_app_or in Hx. destruct Hx as [|[|[]]]; subst; auto.
  - split; auto. simpl. intros x Hx. apply in_map_iff in Hx. destruct Hx as [y [E I]].
    destruct (skey_eqb k (fst y)); subst; simpl; auto.
  - split; auto. simpl. intros x Hx. apply filter_In in Hx. destruct Hx. auto.
  - destruct P as [P1 P2]. destruct (shas s k); [destruct (skey_eqb k k')|]; split; auto. simpl.
    intros x Hx. apply in_map_iff in Hx. destruct Hx as [y [E I]]. apply filter_In in I. destruct I.
    destruct (skey_eqb k (fst y)); subst; simpl; auto.
  - destruct (sdir_empty s d); split; auto. simpl. intros x Hx. apply filter_In in Hx. destruct Hx. auto.
  - split; auto. simpl. intros x Hx. apply in_map_iff in Hx. destruct Hx as [y [E I]].
    destruct (skey_eqb k (fst y)); subst; simpl; auto.
Qed.

Lemma map_render_upd (l : list sent) k (g : file -> file) k2 : (forall e, In e l -> In (fst e) K) -> In k K ->
  map (fun e => if is_at (rdir (k_dag k)) (rname k) e then (rdir (k_dag k2), rname k2, g (e_file e)) else e) (map render_ent l)
  = map render_ent (map (fun e => if skey_eqb k (fst e) then (k2, g (snd e)) else e) l).
Proof.
  intros KI H. rewrite !map_map. apply map_ext_in. intros e He.
  rewrite is_at_render; auto. destruct (skey_eqb k (fst e)); auto.
Qed.

Lemma run_prim_render s p : keys_in s -> prim_in p -> run_prim (render_fs s) (render_prim p) = render_fs (run_sprim s p).
Proof.
  intros KI P. pose proof (proj1 KI) as KF. destruct p; simpl in *.
  - rewrite has_dir_render; auto. destruct (shas_dir s d); auto. unfold render_fs. simpl. rewrite map_app. auto.
  - rewrite has_render; auto. destruct (shas s k); auto. unfold render_fs. simpl. rewrite map_app. auto.
  - unfold render_fs. simpl. f_equal. apply (map_render_upd _ k (fun f => append_chunk f c now) k); auto.
  - unfold render_fs. simpl. f_equal. exact (filter_render negb k _ P KF).
  - destruct P as [P1 P2]. rewrite has_render; auto. destruct (shas s k); auto.
    rewrite render_key_eqb; auto.
    destruct (skey_eqb k k') eqn:E; auto.
    unfold render_fs. simpl. f_equal.
    rewrite (filter_map_in render_ent _ (fun e => negb (skey_eqb k' (fst e)))) by (intros e He; rewrite is_at_render; auto).
    apply (map_render_upd _ k (fun f => f) k'); auto. intros e He. apply filter_In in He. apply KF, He.
  - rewrite dir_empty_render; auto. destruct (sdir_empty s d); auto. unfold render_fs. simpl. f_equal.
    apply filter_map_in. intros x Hx. rewrite nk_dir_eqb; auto. apply KI, Hx.
  - unfold render_fs. simpl. f_equal. apply (map_render_upd _ k (set_mt t) k); auto.
Qed.

Lemma dirs_nodup_run_sprim s p : dirs_nodup s -> dirs_nodup (run_sprim s p).
Proof.
  unfold dirs_nodup. intros N. destruct p; simpl; auto.
  - destruct (shas_dir s d) eqn:E; auto. simpl. apply (Permutation_NoDup (Permutation_cons_append _ d)). constructor; auto.
    intro I. apply not_true_iff_false in E. apply E, existsb_exists. exists d. split; [exact I|apply String.eqb_refl].
  - destruct (shas s k); auto.
  - destruct (shas s k); [destruct (skey_eqb k k')|]; auto.
  - destruct (sdir_empty s d); auto. simpl. apply NoDup_filter; auto.
Qed.
Lemma run_prims_render ps : forall s, keys_in s -> dirs_nodup s -> Forall prim_in ps ->
  run_prims (render_fs s) (map render_prim ps) = render_fs (run_sprims s ps) /\ keys_in (run_sprims s ps) /\ dirs_nodup (run_sprims s ps).
Proof.
  induction ps as [|p ps IH]; intros s KI N F; simpl; auto.
  inversion F; subst. rewrite run_prim_render; auto. apply IH; auto using keys_in_run_sprim, dirs_nodup_run_sprim.
Qed.

Lemma own_match k pk : In k K -> pk_in pk -> go_match (pat_of (k_dag k) pk) (rname k) = Some (in_patk pk k).
Proof. intros H. apply (key_facts k H). Qed.

Lemma glob_names_render d pk l : pk_in pk -> (forall e, In e l -> In (fst e) K /\ k_dag (fst e) = d) -> forall acc,
  glob_names (pat_of d pk) (map render_ent l) acc = GOk (rev acc ++ map render_ent (filter (fun e => in_patk pk (fst e)) l))%list.
Proof.
  intros P. induction l as [|e l IH]; intros H acc; simpl.
  - rewrite app_nil_r. auto.
  - destruct (H e) as [HK Hd]; simpl; auto.
    unfold e_name at 1. simpl. rewrite <- Hd at 1. rewrite own_match; auto.
    destruct (in_patk pk (fst e)).
    + rewrite IH by (intros; apply H; simpl; auto). simpl. rewrite <- app_assoc. auto.
    + apply IH. intros; apply H; simpl; auto.
Qed.

Lemma filter_dirs_render s d : keys_in s -> dirs_nodup s -> In d D ->
  filter (String.eqb (rdir d)) (map rdir (sdirs s)) = if shas_dir s d then [rdir d] else [].
Proof.
  intros [_ DI] N H. rewrite (filter_map_in rdir _ (String.eqb d)) by (intros x Hx; apply nk_dir_eqb; auto).
  clear DI. unfold shas_dir. induction N as [|x l NI N IH]; simpl; auto. destruct (String.eqb_spec d x) as [<-|]; simpl; auto.
  rewrite IH. destruct (existsb (String.eqb d) l) eqn:E; auto.
  apply existsb_exists in E. destruct E as [y [I E]]. apply String.eqb_eq in E. subst. contradiction.
Qed.

Lemma sel_dirs_filter pat (f : string -> bool) l : (forall x, In x l -> go_match pat x = Some (f x)) -> sel_dirs pat l = Some (filter f l).
Proof.
  induction l as [|x l IH]; simpl; intros H; auto.
  rewrite (H x (or_introl eq_refl)). rewrite IH by (intros; apply H; auto). destruct (f x); reflexivity.
Qed.

(* the directories Glob visits for the pattern of d: its own directory, when it exists *)
Lemma glob_own_dir s d fp : keys_in s -> dirs_nodup s -> In d D ->
  (if has_meta (rdirpat d)
   then match go_match (loc ++ "/" ++ rdirpat d) "" with
        | None => GErr
        | Some _ => match sel_dirs (rdirpat d) (isort String.ltb (map rdir (sdirs s))) with
                    | None => GErr
                    | Some ds => glob_dirs fp (render_fs s) ds []
                    end
        end
   else glob_dirs fp (render_fs s) (filter (String.eqb (rdirpat d)) (map rdir (sdirs s))) [])
  = glob_dirs fp (render_fs s) (if shas_dir s d then [rdir d] else []) [].
Proof.
  intros KI N H. destruct (dag_facts d H) as [DS _]. unfold dirsel_okb in DS.
  destruct (has_meta (rdirpat d)).
  - apply andb_prop in DS. destruct DS as [V M]. destruct (go_match (loc ++ "/" ++ rdirpat d) ""); [|discriminate].
    rewrite forallb_forall in M.
    rewrite (sel_dirs_filter (rdirpat d) (String.eqb (rdir d))).
    + (* the sort is stable: it commutes with the selection, which leaves at most one name *)
      rewrite (isort_filter (fun x => x)), filter_dirs_render by auto. destruct (shas_dir s d); reflexivity.
    + intros x Ix. eapply Permutation_in in Ix; [|apply isort_perm]. apply in_map_iff in Ix. destruct Ix as [d0 [E I0]]. subst x.
      destruct KI as [_ DI]. specialize (M d0 (DI d0 I0)). apply obool_eqb_true in M. rewrite M. f_equal.
      symmetry. apply nk_dir_eqb; auto.
  - apply String.eqb_eq in DS. rewrite DS, filter_dirs_render by auto. reflexivity.
Qed.

Lemma glob_render s d pk : keys_in s -> dirs_nodup s -> In d D -> pk_in pk ->
  glob loc (render_fs s) (rdirpat d) (pat_of d pk) = GOk (map render_ent (sglob rname s d pk)).
Proof.
  intros KI N H P. unfold glob.
  assert (V : pat_ok d (pat_of d pk) = true).
  { destruct (dag_facts d H) as [_ [A1 [A2 [A3 _]]]]. destruct pk as [|[day|]]; simpl in *; auto. }
  unfold pat_ok in V. destruct (go_match _ "") eqn:G; [|discriminate].
  simpl dirs. rewrite glob_own_dir by auto.
  unfold sglob. destruct (shas_dir s d); simpl; auto.
  rewrite (filter_map_in render_ent _ (fun e => String.eqb (k_dag (fst e)) d))
    by (intros e He; apply nk_dir_eqb; auto; apply nk_dag, KI, He).
  rewrite (isort_map render_ent (fun x y => String.ltb (rname (fst x)) (rname (fst y)))) by reflexivity.
  rewrite (glob_names_render d pk); auto.
  intros e He. eapply Permutation_in in He; [|apply isort_perm]. apply filter_In in He. destruct He as [I E].
  apply String.eqb_eq in E. split; [apply KI, I|exact E].
Qed.

Lemma sglob_in s d pk e : In e (sglob rname s d pk) -> In e (sfiles s) /\ k_dag (fst e) = d /\ in_patk pk (fst e) = true.
Proof. intros H. apply sglob_iff in H. tauto. Qed.

Definition plain_in (l : list sent) : Prop := forall e, In e l -> In (fst e) K /\ k_tmp (fst e) = false.
Lemma drop_compacted_render l : plain_in l -> drop_compacted loc (map render_ent l) = map render_ent (sdrop_compacted l).
Proof.
  intros H. apply filter_map_in. intros e He. destruct (H e He) as [Ke Te]. f_equal. unfold sdropped.
  rewrite (existsb_map_in render_ent _ (fun m => negb (k_c (fst e)) && skey_eqb (twin (fst e)) (fst m))).
  - clear. induction l as [|m l IH]; simpl; [rewrite andb_false_r; reflexivity|].
    rewrite IH. destruct (negb (k_c (fst e))); reflexivity.
  - intros m Hm. destruct (H m Hm) as [Km Tm]. apply nk_orig; auto.
Qed.
Lemma sdrop_in l e : In e (sdrop_compacted l) -> In e l.
Proof. unfold sdrop_compacted. intros H. apply filter_In in H. apply H. Qed.
Lemma filter_latest_render l n : plain_in l ->
  filter_latest loc (map render_ent l) n = map render_ent (sfilter_latest l n).
Proof.
  intros H. unfold filter_latest, sfilter_latest. rewrite drop_compacted_render by auto.
  rewrite map_map.
  rewrite (map_ext_in (fun x => (ts_of loc (render_ent x), render_ent x)) (fun x => (fun p => (fst p, render_ent (snd p))) (sts_of x, x))).
  2:{ intros e He. simpl. f_equal. unfold ts_of, sts_of. apply sdrop_in in He. apply nk_scan; apply H; auto. }
  rewrite <- (map_map (fun e => (sts_of e, e)) (fun p => (fst p, render_ent (snd p)))).
  rewrite sort_desc_map. simpl. rewrite map_map. simpl. rewrite <- (map_map snd render_ent). rewrite firstn_map. reflexivity.
Qed.

Definition render_fres (r : sfres) : fres :=
  match r with SFNone => FNone | SFFound k p => FFound (rdir (k_dag k)) (rname k) p end.
Lemma find_in_render l req : find_in loc (GOk (map render_ent l)) req = render_fres (sfind_in rpath l req).
Proof.
  unfold find_in, sfind_in. destruct (String.eqb req ""); auto.
  rewrite (isort_map render_ent (fun x y => String.ltb (rpath (fst x)) (rpath (fst y)))) by reflexivity.
  rewrite <- map_rev, filter_map_comm. unfold e_file. simpl.
  destruct (filter _ _) as [|e r]; simpl; auto. destruct (parse (snd e)); auto.
Qed.

Definition cache_in (c : scache) : Prop := forall e, In e c -> In (fst e) K.
Lemma cache_get_render c k : cache_in c -> In k K -> cache_get (render_cache c) (rdir (k_dag k)) (rname k) = scache_get c k.
Proof. intros CI H. exact (alook_render k c H CI). Qed.
Lemma cache_del_render c k : cache_in c -> In k K -> cache_del (render_cache c) (rdir (k_dag k)) (rname k) = render_cache (scache_del c k).
Proof. intros CI H. exact (filter_render negb k c H CI). Qed.
Lemma cache_in_del c k : cache_in c -> cache_in (scache_del c k).
Proof. intros CI e He. apply filter_In in He. destruct He. auto. Qed.
Lemma cache_in_put c k x : cache_in c -> In k K -> cache_in (scache_put c k x).
Proof. intros CI H e [He|He]; subst; auto. apply cache_in_del in He; auto. Qed.

Lemma load_latest_render c s k : keys_in s -> cache_in c -> In k K ->
  load_latest (render_cache c) (render_fs s) (rdir (k_dag k)) (rname k)
  = (render_cache (fst (sload_latest c s k)), snd (sload_latest c s k)) /\ cache_in (fst (sload_latest c s k)).
Proof.
  intros KI CI H. unfold load_latest, sload_latest. rewrite get_render, cache_get_render by auto.
  destruct (sget s k) as [f|]; simpl; auto.
  destruct (match scache_get c k with Some e => _ | None => true end).
  - destruct (parse f); simpl; auto. unfold cache_put. rewrite cache_del_render by auto.
    split; [reflexivity | apply cache_in_put; auto].
  - destruct (scache_get c k); simpl; auto.
Qed.

Lemma load_first_render s l : keys_in s -> (forall e, In e l -> In (fst e) K) -> forall c, cache_in c ->
  load_first (render_cache c) (render_fs s) (map render_ent l)
  = (render_cache (fst (sload_first c s l)), snd (sload_first c s l)) /\ cache_in (fst (sload_first c s l)).
Proof.
  intros KI. induction l as [|e l IH]; intros H c CI; simpl; auto.
  unfold e_dir, e_name. simpl.
  destruct (load_latest_render c s (fst e)) as [E CI']; auto. { apply H; simpl; auto. }
  rewrite E. destruct (sload_latest c s (fst e)) as [c' [p|]]; simpl in *; auto.
Qed.

Lemma load_upto_render s l : keys_in s -> (forall e, In e l -> In (fst e) K) -> forall n c, cache_in c ->
  load_upto (render_cache c) (render_fs s) (map render_ent l) n
  = (render_cache (fst (sload_upto c s l n)), snd (sload_upto c s l n)) /\ cache_in (fst (sload_upto c s l n)).
Proof.
  intros KI. induction l as [|e l IH]; intros H n c CI; simpl; auto.
  destruct n as [|n']; simpl; auto.
  unfold e_dir, e_name. simpl.
  destruct (load_latest_render c s (fst e)) as [E CI']; auto. { apply H; simpl; auto. }
  rewrite E. destruct (sload_latest c s (fst e)) as [c' [p|]]; simpl in *.
  - destruct (IH (fun x Hx => H x (or_intror Hx)) n' c' CI') as [E2 CI2]. rewrite E2.
    destruct (sload_upto c' s l n') as [c'' ps]; simpl in *. auto.
  - apply IH; auto.
Qed.

Lemma sfilter_latest_in l n e : In e (sfilter_latest l n) -> In e l.
Proof.
  unfold sfilter_latest. intros H. apply firstn_incl in H. apply in_map_iff in H. destruct H as [[t x] [E I]]. simpl in E. subst.
  eapply Permutation_in in I; [|apply sort_desc_perm]. apply in_map_iff in I. destruct I as [y [E I]]. inversion E; subst.
  apply sdrop_in; auto.
Qed.

Lemma sglob_plain s d pk : keys_in s -> plain_in (sglob rname s d pk).
Proof.
  intros [KI _] e He. apply sglob_in in He. destruct He as [I [_ P]]. split; auto.
  unfold in_patk in P. apply andb_prop in P. destruct P as [P _]. apply negb_true_iff in P. exact P.
Qed.
Lemma latest_of_render c s l : keys_in s -> cache_in c -> plain_in l ->
  latest_of loc (render_cache c) (render_fs s) (GOk (map render_ent l))
  = (render_cache (fst (slatest_of c s l)), snd (slatest_of c s l)) /\ cache_in (fst (slatest_of c s l)).
Proof.
  intros KI CI H. unfold latest_of, slatest_of. destruct l as [|e0 l0]; simpl map; auto.
  rewrite <- (map_cons render_ent), filter_latest_render by auto. rewrite map_length.
  apply load_first_render; auto. intros e He. apply H. eapply sfilter_latest_in; eauto.
Qed.

Lemma recent_of_render c s l n : keys_in s -> cache_in c -> plain_in l ->
  recent_of loc (render_cache c) (render_fs s) (GOk (map render_ent l)) n
  = (render_cache (fst (srecent_of c s l n)), snd (srecent_of c s l n)) /\ cache_in (fst (srecent_of c s l n)).
Proof.
  intros KI CI H. unfold recent_of, srecent_of. destruct l as [|e0 l0]; simpl map; auto.
  rewrite <- (map_cons render_ent), filter_latest_render by auto. rewrite map_length.
  apply load_upto_render; auto. intros e He. apply H. eapply sfilter_latest_in; eauto.
Qed.

(* a further premise: K is closed under the compaction twin, its temporary copy and re-keying to the DAGs of D *)
Definition closedb : bool :=
  forallb (fun k => existsb (skey_eqb (twin k)) K && existsb (skey_eqb (tmpk (twin k))) K
                    && forallb (fun d' => existsb (skey_eqb (rekey d' k)) K) D) K.
Hypothesis KC : closedb = true.
Lemma closed_in k : In k K -> In (twin k) K /\ In (tmpk (twin k)) K /\ forall d', In d' D -> In (rekey d' k) K.
Proof.
  intros H. unfold closedb in KC. rewrite forallb_forall in KC. specialize (KC k H).
  rewrite !andb_true_iff, forallb_forall in KC. destruct KC as [[A B] C]. repeat split; intros; apply existsb_skey; auto.
Qed.

Definition op_in (o : op) : Prop :=
  match o with
  | OOpen d stamp req _ => In d D /\ In (mkkey d stamp (trunc8 req) false) K
  | OWrite _ _ _ | OClose _ => True
  | OUpdate d _ _ _ _ => In d D
  | ORename d d' => In d D /\ In d' D
  | ORemoveOld d _ => In d D
  | OTouch d stamp r8 c _ => In (mkkey d stamp r8 c) K
  end.
Definition wr_in (w : option swriter) : Prop :=
  match w with
  | Some w => In (sw_key w) K /\ (k_c (sw_key w) = false /\ k_tmp (sw_key w) = false) /\ match sw_fd w with Some k => In k K | None => True end
  | None => True
  end.
Definition state_in (h : sstate) : Prop :=
  keys_in (sst h) /\ dirs_nodup (sst h) /\ cache_in (scch h) /\ wr_in (swr h).
Lemma state_in_intro s w c : keys_in s -> dirs_nodup s -> cache_in c -> wr_in w -> state_in {| sst := s; swr := w; scch := c |}.
Proof. intros A B C E. exact (conj A (conj B (conj C E))). Qed.

Lemma q_find_render s d req : keys_in s -> dirs_nodup s -> In d D ->
  q_find loc dirhash (render_fs s) d req = render_fres (sq_find rname rpath s d req).
Proof.
  intros KI N H. unfold q_find, sq_find.
  rewrite (glob_render _ d PAll) by (simpl; auto). apply find_in_render.
Qed.
Lemma sq_find_key s d req k p : keys_in s -> sq_find rname rpath s d req = SFFound k p -> In k K.
Proof.
  intros [KI _] H. apply sfind_in_inv in H. destruct H as [e [I [E _]]]. apply sglob_in in I. subst k. apply KI, I.
Qed.

Lemma fname_rekey k d' : replace1 (rname k) (prefix_of (k_dag k)) (prefix_of d') = rname (rekey d' k).
Proof. unfold rname, fname. cbn [rekey k_dag k_stamp k_r8 k_c k_tmp]. rewrite !sapp_assoc. apply replace1_prefix. Qed.

Lemma sopen_in st k now : In k K -> Forall prim_in (sopen st k now).
Proof.
  intros H. unfold sopen. apply Forall_app. split. { repeat constructor; simpl; auto. apply nk_dag; auto. }
  destruct (sget st k) as [f|]; [|constructor]. destruct (ftail f); repeat constructor; simpl; auto.
Qed.
Lemma wopen_render s k now : keys_in s -> In k K ->
  wopen (render_fs s) (rdir (k_dag k)) (rname k) now = map render_prim (sopen s k now).
Proof.
  intros KI H. unfold wopen, sopen. rewrite get_render by auto. rewrite map_app. f_equal.
  destruct (sget s k) as [f|]; auto. destruct (ftail f); auto.
Qed.

Lemma prims_in_map {A} (f : A -> sprim) l : (forall x, In x l -> prim_in (f x)) -> Forall prim_in (map f l).
Proof. intros H. apply Forall_map, Forall_forall, H. Qed.
Lemma sprims_in o h : state_in h -> op_in o -> Forall prim_in (sprims rname rpath o h).
Proof.
  intros [KI [N [CI WI]]] P. destruct o; cbn [sprims op_in] in *.
  - (* open *) destruct P. apply sopen_in; auto.
  - (* write *) destruct (swr h) as [w|]; [|constructor]. destruct WI as [_ [_ W]]. destruct (sw_fd w); [|constructor].
    apply prims_in_map; auto.
  - (* close *) destruct (swr h) as [w|]; [|constructor]. destruct WI as [W [_ _]].
    destruct (sget (sst h) (sw_key w)); [|constructor]. destruct (parse f); [|constructor].
    destruct (closed_in _ W) as [Tw [Tt _]]. pose proof (nk_dag _ W) as Td.
    repeat constructor; auto. apply Forall_app. split; [apply prims_in_map; auto|repeat constructor; auto].
  - (* update *) destruct (sq_find rname rpath (sst h) d req) as [|k p] eqn:F; [constructor|].
    apply sq_find_key in F; auto. apply Forall_app. split; [apply sopen_in|apply prims_in_map]; auto.
  - (* rename *) destruct P as [P1 P2]. destruct (shas_dir (sst h) d); [|constructor].
    constructor; [simpl; auto|]. apply Forall_app. split; [|repeat constructor; auto].
    apply prims_in_map. intros e I. apply sglob_in in I. assert (In (fst e) K) by apply KI, I. split; auto. apply closed_in; auto.
  - (* retention *) apply prims_in_map. intros e I. apply filter_In in I. destruct I as [I _]. apply sglob_in in I. apply KI, I.
  - (* touch *) repeat constructor; auto.
Qed.

Lemma prims_render o h : state_in h -> op_in o ->
  prims loc dirhash o (render_state h) = map render_prim (sprims rname rpath o h).
Proof.
  intros [KI [N [CI WI]]] P. destruct o; cbn [prims sprims op_in render_state hfs hwr] in *.
  - (* open *) destruct P as [P1 P2]. rewrite <- (rname_plain d stamp (trunc8 req) false).
    apply (wopen_render (sst h) (mkkey d stamp (trunc8 req) false) now); auto.
  - (* write *) destruct (swr h) as [w|]; simpl; auto. destruct (sw_fd w); simpl; auto. rewrite map_map. reflexivity.
  - (* close *) destruct (swr h) as [w|]; simpl; auto. destruct WI as [W [[C T] _]].
    rewrite get_render by auto. destruct (sget (sst h) (sw_key w)); simpl; auto. destruct (parse f); simpl; auto.
    rewrite nk_twin by auto. rewrite <- (rname_tmpk (twin (sw_key w))) by reflexivity. rewrite map_app, map_map. reflexivity.
  - (* update *) rewrite q_find_render by auto. destruct (sq_find rname rpath (sst h) d req) as [|k p] eqn:F; cbn [render_fres]; auto.
    pose proof (sq_find_key _ _ _ _ _ KI F) as Fk. rewrite wopen_render, map_app, map_map by auto. reflexivity.
  - (* rename *) destruct P as [P1 P2]. rewrite (nk_yaml d P1), (nk_yaml d' P2). fold (rdir d). rewrite has_dir_render by auto.
    destruct (shas_dir (sst h) d); simpl; auto.
    rewrite (glob_render _ d PAll) by (simpl; auto).
    f_equal. rewrite map_app, !map_map. f_equal. apply map_ext_in. intros e He. simpl.
    unfold e_dir, e_name. simpl. apply sglob_in in He. destruct He as [_ [Ed _]]. rewrite <- Ed at 1. rewrite fname_rekey. reflexivity.
  - (* retention *) unfold glob_list. rewrite (glob_render _ d PAll) by (simpl; auto).
    rewrite filter_map_comm, !map_map. reflexivity.
  - (* touch *) simpl. rewrite rname_plain. reflexivity.
Qed.

Definition fd_in (fd : option skey) : Prop := match fd with Some k => In k K | None => True end.
Lemma track_fd_render fd p : fd_in fd -> prim_in p ->
  track_fd (option_map render_fd fd) (render_prim p) = option_map render_fd (strack_fd fd p) /\ fd_in (strack_fd fd p).
Proof.
  intros F P. destruct fd as [k|]; simpl; [|destruct p; simpl; auto].
  destruct p; simpl in *; auto.
  - rewrite render_key_eqb by auto. destruct (skey_eqb k0 k); simpl; auto.
  - destruct P as [P1 P2]. rewrite !render_key_eqb by auto. destruct (skey_eqb k0 k), (skey_eqb k' k); simpl; auto.
Qed.
Lemma track_fds_render ps : forall fd, fd_in fd -> Forall prim_in ps ->
  fold_left track_fd (map render_prim ps) (option_map render_fd fd) = option_map render_fd (fold_left strack_fd ps fd)
  /\ fd_in (fold_left strack_fd ps fd).
Proof.
  induction ps as [|p ps IH]; intros fd F P; simpl; auto.
  inversion P; subst. destruct (track_fd_render fd p) as [E I]; auto. rewrite E. apply IH; auto.
Qed.
Lemma track_wr_render w ps : wr_in w -> Forall prim_in ps ->
  track_wr (option_map render_wr w) (map render_prim ps) = option_map render_wr (strack_wr w ps) /\ wr_in (strack_wr w ps).
Proof.
  intros W P. destruct w as [w|]; simpl; auto. destruct W as [W1 [W2 W3]].
  destruct (track_fds_render ps (sw_fd w)) as [E I]; auto. rewrite E. unfold render_wr. simpl. auto.
Qed.

(* c is general: for update it is the cache without the entry *)
Lemma tracked_render s w c ps : keys_in s -> dirs_nodup s -> cache_in c -> wr_in w -> Forall prim_in ps ->
  {| hfs := render_fs s; hwr := track_wr (option_map render_wr w) (map render_prim ps); hcache := render_cache c |}
  = render_state {| sst := s; swr := strack_wr w ps; scch := c |}
  /\ state_in {| sst := s; swr := strack_wr w ps; scch := c |}.
Proof.
  intros KI N CI WI PI. destruct (track_wr_render w ps WI PI) as [E W']. rewrite E.
  split; [reflexivity|apply state_in_intro; auto].
Qed.

Theorem apply_render o h : state_in h -> op_in o ->
  apply loc dirhash (render_state h) o = render_state (sapply rname rpath h o) /\ state_in (sapply rname rpath h o).
Proof.
  intros SI P. pose proof (sprims_in o h SI P) as PI. pose proof (prims_render o h SI P) as PR.
  pose proof SI as [KI [N [CI WI]]].
  destruct (run_prims_render (sprims rname rpath o h) (sst h) KI N PI) as [RR [KI' N']].
  unfold apply, sapply. rewrite PR. simpl hfs. rewrite RR.
  destruct o; try (apply tracked_render; auto).     (* write, rename, retention, chtimes *)
  - (* open: the new writer *)
    simpl in P. destruct P as [P1 P2]. split; [rewrite <- (rname_plain d stamp (trunc8 req) false); reflexivity|].
    apply state_in_intro; auto. simpl. auto.
  - (* close: no writer; the entry of the closed file leaves the cache *)
    simpl hwr. destruct (swr h) as [w|] eqn:EW; simpl.
    + destruct WI as [W1 [W2 W3]]. rewrite get_render by auto.
      destruct (sget (sst h) (sw_key w)).
      * rewrite cache_del_render by auto. split; [reflexivity|]. apply state_in_intro; simpl; auto using cache_in_del.
      * split; [reflexivity|]. apply state_in_intro; simpl; auto.
    + split; [unfold render_state; rewrite EW; reflexivity|exact SI].
  - (* update: the entry of the file found leaves the cache *)
    simpl in P. simpl hfs. rewrite q_find_render by auto.
    destruct (sq_find rname rpath (sst h) d req) as [|k p] eqn:F; cbn [render_fres]; [auto|].
    pose proof (sq_find_key _ _ _ _ _ KI F) as Fk. simpl hcache. rewrite cache_del_render by auto.
    apply tracked_render; auto using cache_in_del.
Qed.

Lemma q_latest_render c s d day : keys_in s -> dirs_nodup s -> cache_in c -> In d D -> pk_in (PLatest day) ->
  q_latest loc dirhash (render_cache c) (render_fs s) d day
  = (render_cache (fst (sq_latest rname c s d day)), snd (sq_latest rname c s d day)) /\ cache_in (fst (sq_latest rname c s d day)).
Proof.
  intros KI N CI H P. unfold q_latest, sq_latest.
  rewrite (glob_render _ d (PLatest day)) by auto.
  apply latest_of_render; auto. apply sglob_plain; auto.
Qed.
Lemma q_recent_render c s d n : keys_in s -> dirs_nodup s -> cache_in c -> In d D ->
  q_recent loc dirhash (render_cache c) (render_fs s) d n
  = (render_cache (fst (sq_recent rname c s d n)), snd (sq_recent rname c s d n)) /\ cache_in (fst (sq_recent rname c s d n)).
Proof.
  intros KI N CI H. unfold q_recent, sq_recent.
  rewrite (glob_render _ d PAll) by (simpl; auto).
  apply recent_of_render; auto. apply sglob_plain; auto.
Qed.

Lemma state_in_init : state_in s_init.
Proof.
  unfold state_in, keys_in, dirs_nodup, cache_in. simpl. repeat split; try (intros ? []); auto. constructor.
Qed.

Theorem run_ops_render ops : forall h, state_in h -> Forall op_in ops ->
  run_ops loc dirhash (render_state h) ops = render_state (srun_ops rname rpath h ops) /\ state_in (srun_ops rname rpath h ops).
Proof.
  induction ops as [|o ops IH]; intros h SI F; simpl; auto.
  inversion F; subst. destruct (apply_render o h SI) as [E SI']; auto. rewrite E. apply IH; auto.
Qed.

Lemma torn_render p : torn (render_prim p) = map render_prim (storn p).
Proof. destruct p; simpl; auto. destruct c; simpl; auto. Qed.
Lemma storn_in p : prim_in p -> Forall prim_in (storn p).
Proof. destruct p; simpl; try constructor. destruct c; simpl; repeat constructor; auto. Qed.
Lemma crash_from_render ps : forall s, keys_in s -> Forall prim_in ps ->
  crash_from (render_fs s) (map render_prim ps) = map render_fs (scrash_from s ps).
Proof.
  induction ps as [|p ps IH]; intros s KI F; simpl; auto.
  inversion F; subst. f_equal. rewrite map_app. f_equal.
  - rewrite torn_render, !map_map. apply map_ext_in. intros x Hx. apply run_prim_render; auto.
    pose proof (storn_in p H1) as T. rewrite Forall_forall in T. auto.
  - rewrite run_prim_render by auto. apply IH; auto. apply keys_in_run_sprim; auto.
Qed.
Theorem crash_states_render o h : state_in h -> op_in o ->
  crash_states loc dirhash (render_state h) o = map render_fs (scrash_states rname rpath h o).
Proof.
  intros SI P. unfold crash_states, scrash_states. rewrite prims_render by auto.
  simpl hfs. apply crash_from_render. { apply SI. } apply sprims_in; auto.
Qed.

Lemma scrash_in ps : forall s x, keys_in s -> dirs_nodup s -> Forall prim_in ps -> In x (scrash_from s ps) -> keys_in x /\ dirs_nodup x.
Proof.
  induction ps as [|p ps IH]; intros s x KI N F IN; simpl in IN.
  - destruct IN as [IN|[]]. subst. auto.
  - inversion F; subst. destruct IN as [IN|IN]. { subst. auto. }
    apply in_app_or in IN. destruct IN as [IN|IN].
    + apply in_map_iff in IN. destruct IN as [q [E Iq]]. subst x.
      pose proof (storn_in p H1) as T. rewrite Forall_forall in T. auto using keys_in_run_sprim, dirs_nodup_run_sprim.
    + apply (IH (run_sprim s p)); auto using keys_in_run_sprim, dirs_nodup_run_sprim.
Qed.

(* a fresh process: the cache is empty *)
Lemma fresh_answers_render s d : keys_in s -> dirs_nodup s -> In d D ->
  (forall req, q_find loc dirhash (render_fs s) d req = render_fres (sq_find rname rpath s d req))
  /\ (forall day, pk_in (PLatest day) -> snd (q_latest loc dirhash [] (render_fs s) d day) = snd (sq_latest rname [] s d day))
  /\ (forall n, snd (q_recent loc dirhash [] (render_fs s) d n) = snd (sq_recent rname [] s d n)).
Proof.
  intros KI N Id. assert (CI : cache_in []) by (intros e []).
  split; [|split].
  - intros req. apply q_find_render; auto.
  - intros day Pd. exact (f_equal snd (proj1 (q_latest_render [] s d day KI N CI Id Pd))).
  - intros n. exact (f_equal snd (proj1 (q_recent_render [] s d n KI N CI Id))).
Qed.

End U.
End R.
