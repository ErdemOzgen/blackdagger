(* Generic facts used by the Hist proofs: byte order of strings (String.ltb as a strict total order),
   prefixes, filters under permutation, and the insertion sort of Model.v for any comparison that is a strict weak order
   (permutation, sortedness, commutation with map and - being stable - with every filter); sort_desc is isort for the
   flipped key comparison, so its lemmas are instances. *)
From Coq Require Import List String Ascii Bool Arith ZArith Lia Permutation Sorting.Sorted.
From Coq Require Import Structures.OrderedTypeEx.
Import ListNotations.
From BD.Hist Require Import Model SModel.
Open Scope string_scope.

Lemma sltb_lt a b : String.ltb a b = true <-> String_as_OT.lt a b.
Proof.
  unfold String.ltb. rewrite <- String_as_OT.cmp_lt. unfold String_as_OT.cmp.
  destruct (String.compare a b); split; congruence.
Qed.
Lemma sltb_irrefl a : String.ltb a a = false.
Proof.
  destruct (String.ltb a a) eqn:E; auto. apply sltb_lt in E.
  exfalso. eapply String_as_OT.lt_not_eq; eauto. reflexivity.
Qed.
Lemma sltb_trans a b c : String.ltb a b = true -> String.ltb b c = true -> String.ltb a c = true.
Proof. rewrite !sltb_lt. apply String_as_OT.lt_trans. Qed.
Lemma sltb_asym a b : String.ltb a b = true -> String.ltb b a = false.
Proof.
  intros H. destruct (String.ltb b a) eqn:E; auto.
  pose proof (sltb_trans _ _ _ H E) as T. rewrite sltb_irrefl in T. discriminate.
Qed.
Lemma sltb_total a b : a <> b -> String.ltb a b = true \/ String.ltb b a = true.
Proof.
  intros N. unfold String.ltb. rewrite (String.compare_antisym b a).
  destruct (String.compare a b) eqn:E; simpl; auto.
  apply String.compare_eq_iff in E. contradiction.
Qed.

Lemma compare_take n : forall a b, take n a <> take n b -> String.compare (take n a) (take n b) = String.compare a b.
Proof.
  induction n; intros a b N.
  { exfalso. apply N. destruct a, b; reflexivity. }
  destruct a as [|x a], b as [|y b]; simpl in *; try congruence.
  destruct (Ascii.compare x y) eqn:E; auto.
  apply IHn. intro H. apply N. f_equal; auto.
  apply OrderedTypeEx.Ascii_as_OT.cmp_eq in E. exact E.
Qed.
Lemma ltb_take n a b : take n a <> take n b -> String.ltb (take n a) (take n b) = String.ltb a b.
Proof. intros N. unfold String.ltb. rewrite compare_take; auto. Qed.

Lemma prefixb_app p r : prefixb p (p ++ r) = true.
Proof. induction p; simpl; auto. rewrite Ascii.eqb_refl. auto. Qed.
Lemma drop_app p r : drop (String.length p) (p ++ r) = r.
Proof. induction p; simpl; auto. Qed.
Lemma replace1_prefix p q r : replace1 (p ++ r) p q = q ++ r.
Proof.
  destruct (p ++ r) eqn:E.
  - simpl. destruct p; simpl in *; try discriminate. subst. reflexivity.
  - cbn [replace1]. rewrite <- E, prefixb_app, drop_app. reflexivity.
Qed.
Lemma sapp_assoc (a b c : string) : (a ++ b) ++ c = a ++ (b ++ c).
Proof. induction a; simpl; congruence. Qed.
Lemma sapp_inv_head (a b c : string) : a ++ b = a ++ c -> b = c.
Proof. induction a; simpl; intros H; auto. inversion H; auto. Qed.
Lemma app_empty_r (x : string) : x ++ "" = x.
Proof. induction x; simpl; auto. f_equal. auto. Qed.
Lemma eqb_app_head p a b : String.eqb (p ++ a) (p ++ b) = String.eqb a b.
Proof. induction p; simpl; auto. rewrite Ascii.eqb_refl. auto. Qed.
Lemma ltb_app_head p a b : String.ltb (p ++ a) (p ++ b) = String.ltb a b.
Proof.
  unfold String.ltb. induction p as [|c p IH]; [reflexivity|]. cbn [append String.compare].
  assert (E : Ascii.compare c c = Eq) by (apply (Ascii_as_OT.cmp_eq c c); reflexivity). rewrite E. exact IH.
Qed.
Lemma length_app (a b : string) : String.length (a ++ b) = String.length a + String.length b.
Proof. induction a; simpl; auto. Qed.
Lemma drop_app_ge p t n : drop (String.length p + n) (p ++ t) = drop n t.
Proof. induction p; simpl; auto. Qed.
Lemma take_app_ge p t n : take (String.length p + n) (p ++ t) = p ++ take n t.
Proof. induction p; simpl; auto. f_equal. auto. Qed.
Lemma prefixb_inv p : forall s, prefixb p s = true -> s = p ++ drop (String.length p) s.
Proof.
  induction p as [|a p IH]; intros s H; [reflexivity|]. destruct s as [|b s]; [discriminate|]. cbn [prefixb] in H.
  apply andb_prop in H. destruct H as [E H]. apply Ascii.eqb_eq in E. subst b. cbn [String.length drop append]. f_equal. apply IH, H.
Qed.

Lemma filter_true {A} (l : list A) : filter (fun _ => true) l = l.
Proof. induction l; simpl; congruence. Qed.
Lemma filter_map_comm {A B} (f : A -> B) (p : B -> bool) l : filter p (map f l) = map f (filter (fun x => p (f x)) l).
Proof. induction l; simpl; auto. destruct (p (f a)); simpl; congruence. Qed.
Lemma filter_filter {A} (p q : A -> bool) l : filter p (filter q l) = filter (fun x => q x && p x) l.
Proof. induction l; simpl; auto. destruct (q a); simpl; [destruct (p a)|]; simpl; congruence. Qed.
Lemma filter_comm {A} (p q : A -> bool) l : filter p (filter q l) = filter q (filter p l).
Proof. rewrite !filter_filter. apply filter_ext. intros x. apply andb_comm. Qed.
Lemma filter_rev' {A} (P : A -> bool) l : filter P (rev l) = rev (filter P l).
Proof. induction l as [|a l IH]; simpl; auto. rewrite filter_app, IH. simpl. destruct (P a); simpl; auto. rewrite app_nil_r. reflexivity. Qed.
Lemma forallb_map {A B} (g : A -> B) (P : B -> bool) l : forallb P (map g l) = forallb (fun a => P (g a)) l.
Proof. induction l; simpl; auto. rewrite IHl. reflexivity. Qed.
Lemma forallb_ext_in {A} (f g : A -> bool) l : (forall x, In x l -> f x = g x) -> forallb f l = forallb g l.
Proof. induction l; simpl; intros H; auto. rewrite H, IHl; auto. Qed.
Lemma existsb_map' {A B} (f : A -> B) (g : B -> bool) l : existsb g (map f l) = existsb (fun x => g (f x)) l.
Proof. induction l; simpl; auto. rewrite IHl. reflexivity. Qed.
Lemma existsb_ext_in' {A} (f g : A -> bool) l : (forall x, In x l -> f x = g x) -> existsb f l = existsb g l.
Proof. induction l; simpl; intros H; auto. rewrite H, IHl; auto. Qed.
Lemma find_filter_imp {A} (P Q : A -> bool) l : (forall a, P a = true -> Q a = true) -> find P (filter Q l) = find P l.
Proof.
  intros I. induction l as [|a l IH]; simpl; auto. destruct (Q a) eqn:Eq; simpl.
  - destruct (P a); auto.
  - destruct (P a) eqn:Ep; auto. rewrite (I a Ep) in Eq. discriminate.
Qed.

Lemma filter_map_stable {A} (P : A -> bool) (g : A -> A) l :
  (forall a, In a l -> g a = a \/ (P a = false /\ P (g a) = false)) -> filter P (map g l) = filter P l.
Proof.
  induction l as [|a l IH]; simpl; intros Hg; auto.
  rewrite IH by (intros; apply Hg; auto). destruct (Hg a (or_introl eq_refl)) as [E|[E1 E2]].
  - rewrite E. reflexivity.
  - rewrite E1, E2. reflexivity.
Qed.
Lemma find_map {A} (P : A -> bool) (g : A -> A) l : find P (map g l) = option_map g (find (fun a => P (g a)) l).
Proof. induction l as [|a l IH]; simpl; auto. destruct (P (g a)); auto. Qed.
Lemma NoDup_map_inj {A B} (f : A -> B) l x y : NoDup (map f l) -> In x l -> In y l -> f x = f y -> x = y.
Proof.
  induction l as [|a l IH]; simpl; intros N Ix Iy E; [tauto|].
  inversion N; subst. destruct Ix as [Ix|Ix], Iy as [Iy|Iy]; subst; auto.
  - exfalso. apply H1. rewrite E. apply in_map; auto.
  - exfalso. apply H1. rewrite <- E. apply in_map; auto.
Qed.
Lemma Permutation_filter {A} (p : A -> bool) l l' : Permutation l l' -> Permutation (filter p l) (filter p l').
Proof.
  induction 1; simpl; auto.
  - destruct (p x); auto.
  - destruct (p x), (p y); auto. apply perm_swap.
  - eapply Permutation_trans; eauto.
Qed.

Lemma ins_by_perm {A} (lt : A -> A -> bool) x l : Permutation (ins_by lt x l) (x :: l).
Proof.
  induction l; simpl; auto. destruct (lt x a); auto.
  eapply Permutation_trans; [apply perm_skip, IHl | apply perm_swap].
Qed.
Lemma isort_perm {A} (lt : A -> A -> bool) l : Permutation (isort lt l) l.
Proof.
  unfold isort. rewrite <- (app_nil_r l) at 2. generalize (@nil A). induction l as [|x l IH]; intros acc; simpl; auto.
  eapply Permutation_trans; [apply IH|].
  eapply Permutation_trans; [apply Permutation_app_head, ins_by_perm|]. apply Permutation_sym, Permutation_middle.
Qed.
Lemma ins_by_map {A B} (f : A -> B) (ltA : A -> A -> bool) (ltB : B -> B -> bool) x l :
  (forall a b, ltB (f a) (f b) = ltA a b) -> ins_by ltB (f x) (map f l) = map f (ins_by ltA x l).
Proof. intros H. induction l; simpl; auto. rewrite H. destruct (ltA x a); simpl; congruence. Qed.
Lemma isort_map {A B} (f : A -> B) (ltA : A -> A -> bool) (ltB : B -> B -> bool) l :
  (forall a b, ltB (f a) (f b) = ltA a b) -> isort ltB (map f l) = map f (isort ltA l).
Proof.
  intros H. unfold isort. change (@nil B) with (map f []). generalize (@nil A).
  induction l; intros acc; simpl; auto. rewrite (ins_by_map f ltA ltB); auto.
Qed.
Lemma ins_by_ext {A} (lt1 lt2 : A -> A -> bool) x l : (forall y, In y l -> lt1 x y = lt2 x y) -> ins_by lt1 x l = ins_by lt2 x l.
Proof. induction l; simpl; intros H; auto. rewrite H by auto. destruct (lt2 x a); auto. f_equal. apply IHl. auto. Qed.
Lemma isort_ext {A} (lt1 lt2 : A -> A -> bool) l : (forall x y, In x l -> In y l -> lt1 x y = lt2 x y) -> isort lt1 l = isort lt2 l.
Proof.
  intros H. unfold isort.
  assert (G : forall l' acc, incl l' l -> incl acc l ->
              fold_left (fun acc x => ins_by lt1 x acc) l' acc = fold_left (fun acc x => ins_by lt2 x acc) l' acc).
  { induction l'; intros acc I1 I2; simpl; auto. rewrite (ins_by_ext lt1 lt2).
    - apply IHl'. { intros z Hz. apply I1. simpl; auto. }
      intros z Hz. eapply Permutation_in in Hz; [|apply ins_by_perm]. destruct Hz; [subst; apply I1; simpl; auto| apply I2; auto].
    - intros y Hy. apply H; [apply I1; simpl; auto | apply I2; auto]. }
  apply G. { apply incl_refl. } intros z [].
Qed.

Section Stable.
Context {A : Type} (lt : A -> A -> bool).
Hypothesis lt_asym : forall x y, lt x y = true -> lt y x = false.
Hypothesis lt_trans : forall x y z, lt x y = true -> lt y z = true -> lt x z = true.
Hypothesis lt_neg : forall x y z, lt x y = true -> lt z y = false -> lt x z = true.     (* negative transitivity *)
Let ge : A -> A -> Prop := fun a b => lt b a = false.     (* b may stand after a *)

Lemma ins_sorted x l : StronglySorted ge l -> StronglySorted ge (ins_by lt x l).
Proof.
  induction 1 as [|a l S IH F]; simpl; [repeat constructor|].
  destruct (lt x a) eqn:E.
  - repeat constructor; auto. { apply lt_asym; auto. }
    eapply Forall_impl; [|exact F]. unfold ge. intros b Hb. destruct (lt b x) eqn:E2; auto.
    rewrite (lt_trans _ _ _ E2 E) in Hb. discriminate.
  - constructor; auto. eapply Permutation_Forall; [apply Permutation_sym, ins_by_perm|]. constructor; auto.
Qed.
Lemma isort_sorted_gen l : StronglySorted ge (isort lt l).
Proof.
  unfold isort. assert (G : StronglySorted ge (@nil A)) by constructor. revert G. generalize (@nil A).
  induction l; simpl; intros acc G; auto. apply IHl, ins_sorted, G.
Qed.
Lemma ins_front x y l P : StronglySorted ge (y :: l) -> lt x y = true -> ins_by lt x (filter P (y :: l)) = x :: filter P (y :: l).
Proof.
  intros S H. revert y S H. induction l as [|z l IH]; intros y S H; simpl; destruct (P y); simpl; rewrite ?H; auto.
  inversion S as [|? ? S' F]; subst. inversion F; subst. apply (IH z S'). apply (lt_neg _ y); auto.
Qed.
Lemma ins_filter P x l : StronglySorted ge l -> filter P (ins_by lt x l) = if P x then ins_by lt x (filter P l) else filter P l.
Proof.
  induction 1 as [|y l S IH F]; [simpl; destruct (P x); reflexivity|].
  cbn [ins_by]. destruct (lt x y) eqn:E.
  - cbn [filter]. destruct (P x); auto. change (if P y then y :: filter P l else filter P l) with (filter P (y :: l)).
    rewrite ins_front; auto. constructor; auto.
  - cbn [filter]. rewrite IH. destruct (P x), (P y); simpl; rewrite ?E; reflexivity.
Qed.
Lemma isort_filter_gen P l : filter P (isort lt l) = isort lt (filter P l).
Proof.
  unfold isort. assert (G : StronglySorted ge (@nil A)) by constructor. change (@nil A) with (filter P []) at 2.
  revert G. generalize (@nil A). induction l as [|x l IH]; intros acc G; simpl; auto.
  rewrite IH by (apply ins_sorted; auto). rewrite ins_filter by auto. destruct (P x); reflexivity.
Qed.
End Stable.

(* ascending by a string key: the directory listings; descending: filterLatest *)
Definition klt {A} (key : A -> string) : A -> A -> bool := fun x y => String.ltb (key x) (key y).
Definition kgt {A} (key : A -> string) : A -> A -> bool := fun x y => String.ltb (key y) (key x).
Definition asc {A} (key : A -> string) : A -> A -> Prop := fun a b => String.ltb (key b) (key a) = false.
Definition desc {A} (key : A -> string) : A -> A -> Prop := fun a b => String.ltb (key a) (key b) = false.
Lemma sltb_neg a b c : String.ltb a b = true -> String.ltb c b = false -> String.ltb a c = true.
Proof.
  intros H1 H2. destruct (String.ltb a c) eqn:E; auto.
  destruct (string_dec a c) as [Q|Q]. { rewrite <- Q in H2. congruence. }
  destruct (sltb_total _ _ Q) as [T|T]; [congruence|]. rewrite (sltb_trans _ _ _ T H1) in H2. discriminate.
Qed.
Lemma sltb_neg' a b c : String.ltb b a = true -> String.ltb b c = false -> String.ltb c a = true.
Proof.
  intros H1 H2. destruct (String.ltb c a) eqn:E; auto.
  destruct (string_dec c a) as [Q|Q]. { rewrite Q in H2. congruence. }
  destruct (sltb_total _ _ Q) as [T|T]; [congruence|]. rewrite (sltb_trans _ _ _ H1 T) in H2. discriminate.
Qed.
Section Keyed.
Context {A : Type} (key : A -> string).
Lemma isort_sorted l : StronglySorted (asc key) (isort (klt key) l).
Proof. apply (isort_sorted_gen (klt key)); unfold klt; intros *; [apply sltb_asym | apply sltb_trans]. Qed.
Lemma isort_filter P l : filter P (isort (klt key) l) = isort (klt key) (filter P l).
Proof. apply isort_filter_gen; unfold klt; intros *; [apply sltb_asym | apply sltb_trans | apply sltb_neg]. Qed.

Lemma ins_desc_by x l : ins_desc key x l = ins_by (kgt key) x l.
Proof. induction l; simpl; auto. rewrite IHl. reflexivity. Qed.
Lemma sort_desc_by l : sort_desc key l = isort (kgt key) l.
Proof. unfold sort_desc, isort. generalize (@nil A). induction l; simpl; intros acc; auto. rewrite ins_desc_by. auto. Qed.
Lemma sort_desc_perm l : Permutation (sort_desc key l) l.
Proof. rewrite sort_desc_by. apply isort_perm. Qed.
Lemma sort_desc_sorted l : StronglySorted (desc key) (sort_desc key l).
Proof.
  rewrite sort_desc_by. apply (isort_sorted_gen (kgt key)); unfold kgt; intros *; [apply sltb_asym|].
  intros X Y. exact (sltb_trans _ _ _ Y X).
Qed.
Lemma sort_desc_filter P l : filter P (sort_desc key l) = sort_desc key (filter P l).
Proof.
  rewrite !sort_desc_by. apply isort_filter_gen; unfold kgt; intros *; [apply sltb_asym| |apply sltb_neg'].
  intros X Y. exact (sltb_trans _ _ _ Y X).
Qed.
End Keyed.
Lemma sort_desc_map {A B} (f : A -> B) (key : B -> string) l :
  sort_desc key (map f l) = map f (sort_desc (fun a => key (f a)) l).
Proof. rewrite !sort_desc_by. apply isort_map. reflexivity. Qed.
Lemma sort_desc_ext {A} (k1 k2 : A -> string) l :
  (forall x y, In x l -> In y l -> String.ltb (k1 x) (k1 y) = String.ltb (k2 x) (k2 y)) -> sort_desc k1 l = sort_desc k2 l.
Proof. intros H. rewrite !sort_desc_by. apply isort_ext. intros x y Ix Iy. apply H; auto. Qed.

Lemma sorted_unique {A} (key : A -> string) : forall l1 l2,
  Permutation l1 l2 -> NoDup (map key l1) ->
  StronglySorted (desc key) l1 -> StronglySorted (desc key) l2 -> l1 = l2.
Proof.
  induction l1 as [|a l1 IH]; intros l2 P ND S1 S2.
  - apply Permutation_nil in P. auto.
  - destruct l2 as [|b l2]. { apply Permutation_sym, Permutation_nil in P. discriminate. }
    inversion S1 as [|? ? S1' F1]; subst. inversion S2 as [|? ? S2' F2]; subst.
    assert (a = b).
    { assert (Ia : In a (b :: l2)) by (eapply Permutation_in; [exact P|simpl; auto]).
      assert (Ib : In b (a :: l1)) by (eapply Permutation_in; [apply Permutation_sym, P|simpl; auto]).
      destruct Ia as [|Ia]; auto. destruct Ib as [|Ib]; auto.
      rewrite Forall_forall in F1, F2. specialize (F1 _ Ib). specialize (F2 _ Ia). unfold desc in *.
      assert (key a <> key b).
      { simpl in ND. inversion ND; subst. intro K. apply H1. rewrite K. apply in_map. auto. }
      destruct (sltb_total _ _ H); congruence. }
    subst b. f_equal. apply IH; auto.
    + eapply Permutation_cons_inv; eauto.
    + simpl in ND. inversion ND; auto.
Qed.

Lemma sort_desc_perm_inv {A} (key : A -> string) l1 l2 :
  Permutation l1 l2 -> NoDup (map key l1) -> sort_desc key l1 = sort_desc key l2.
Proof.
  intros P ND. apply (sorted_unique key).
  - eapply Permutation_trans; [apply sort_desc_perm|]. eapply Permutation_trans; [exact P|]. apply Permutation_sym, sort_desc_perm.
  - eapply Permutation_NoDup; [|exact ND]. apply Permutation_map, Permutation_sym, sort_desc_perm.
  - apply sort_desc_sorted.
  - apply sort_desc_sorted.
Qed.

Lemma firstn_incl {A} n : forall (l : list A) x, In x (firstn n l) -> In x l.
Proof. induction n; intros l x H; simpl in *; [tauto|]. destruct l; simpl in *; [tauto|]. destruct H; auto. Qed.

Lemma Forall2_map_eq {A B C} (R : A -> B -> Prop) (f : A -> C) (g : B -> C) l l' :
  Forall2 R l l' -> (forall a b, R a b -> f a = g b) -> map f l = map g l'.
Proof. induction 1; simpl; intros H'; auto. f_equal; auto. Qed.
Lemma last_some_snoc {A} (l : list A) x : last (map Some (l ++ [x])%list) None = Some x.
Proof. induction l; simpl; auto. destruct (l ++ [x])%list eqn:E; [destruct l; discriminate|]. simpl in *. auto. Qed.
Lemma last_rec_app l x acc : last_rec (l ++ [x])%list acc = match x with Rec p => Some p | Junk _ => last_rec l acc end.
Proof. revert acc. induction l as [|i l IH]; intros acc; simpl; [destruct x; auto|]. destruct i; rewrite IH; auto. Qed.

Lemma skey_eqb_eq a b : skey_eqb a b = true <-> a = b.
Proof.
  unfold skey_eqb. split.
  - intros H. repeat match goal with H : (_ && _)%bool = true |- _ => apply andb_prop in H; destruct H end.
    repeat match goal with X : String.eqb _ _ = true |- _ => apply String.eqb_eq in X | X : Bool.eqb _ _ = true |- _ => apply Bool.eqb_prop in X end.
    destruct a, b; simpl in *; subst; auto.
  - intros ->. rewrite !String.eqb_refl, !Bool.eqb_reflx. auto.
Qed.
Lemma skey_eqb_spec a b : reflect (a = b) (skey_eqb a b).
Proof. apply iff_reflect. symmetry. apply skey_eqb_eq. Qed.
Lemma skey_eqb_refl a : skey_eqb a a = true.
Proof. apply skey_eqb_eq; auto. Qed.
Lemma skey_eqb_neq a b : skey_eqb a b = false <-> a <> b.
Proof. destruct (skey_eqb_spec a b); split; congruence. Qed.
Lemma skey_eqb_sym a b : skey_eqb a b = skey_eqb b a.
Proof. destruct (skey_eqb_spec a b), (skey_eqb_spec b a); congruence. Qed.
Lemma existsb_skey k l : existsb (skey_eqb k) l = true <-> In k l.
Proof.
  rewrite existsb_exists. split.
  - intros [x [I E]]. apply skey_eqb_eq in E. subst. exact I.
  - intros I. exists k. split; [exact I|apply skey_eqb_refl].
Qed.
(* the same with the test written the other way round, as run_unlinks and rekey_in write it *)
Lemma existsb_key ks k : existsb (fun k0 => skey_eqb k0 k) ks = true <-> In k ks.
Proof. rewrite <- existsb_skey, (existsb_ext_in' _ (skey_eqb k)); [reflexivity|]. intros x _. apply skey_eqb_sym. Qed.
