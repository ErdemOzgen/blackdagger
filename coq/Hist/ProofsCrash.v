(* C07 at level L1: what a fresh process finds after the recording process was killed at ANY point of ANY operation applied to ANY
   reachable (crash-free) state.  A crash state = the store after a prefix of the operation's primitive steps, possibly followed by
   a torn version of the next append (SModel.scrash_states).  R2g false (ProofsRefine.v) also relates crash states - a torn tail or
   a changed mtime is invisible to the queries - so a crash state answers as the specification on some run map: the one BEFORE or
   AFTER the operation, up to one file the queries do not see (crel); for retention / rename, whose steps cannot be torn, the one
   with a prefix of the runs removed / moved.  The former witnesses of F7a / F7b / F7c are positive Examples in ProofsC07Ex.v. *)
From Coq Require Import List String Ascii Bool Arith ZArith Lia Permutation Sorted.
Import ListNotations.
From BD.Hist Require Import Model SModel Spec ProofsLib ProofsStore ProofsRefine ProofsCache.
Open Scope string_scope.
Open Scope list_scope.

Definition dead (s : sfs) : sstate := {| sst := s; swr := None; scch := [] |}.
Definition hdead (H : hist) : hist := {| h_runs := h_runs H; h_cur := None; h_next := h_next H |}.

Lemma NoDup_firstn {A} n : forall l : list A, NoDup l -> NoDup (firstn n l).
Proof.
  induction n; intros [|a l] N; simpl; try constructor; inversion N; subst; auto.
  intro I. apply firstn_incl in I. contradiction.
Qed.
Lemma Forall2_in_r {A B} (P : A -> B -> Prop) l l' y : Forall2 P l l' -> In y l' -> exists x, In x l /\ P x y.
Proof. induction 1; simpl; intros I; [tauto|]. destruct I as [I|I]. { subst. eauto. } destruct (IHForall2 I) as [x0 [I0 P0]]. eauto. Qed.
Lemma Forall2_in_l {A B} (P : A -> B -> Prop) l l' x : Forall2 P l l' -> In x l -> exists y, In y l' /\ P x y.
Proof. induction 1; simpl; intros I; [tauto|]. destruct I as [I|I]. { subst. eauto. } destruct (IHForall2 I) as [y0 [I0 P0]]. eauto. Qed.
Lemma Forall2_map_lr {A A' B'} (P : A' -> B' -> Prop) (f : A -> A') (g : A -> B') l :
  (forall x, In x l -> P (f x) (g x)) -> Forall2 P (map f l) (map g l).
Proof. induction l; simpl; intros H; constructor; auto. Qed.

(* the run map between BEFORE and AFTER a rename: some runs of d already belong to d' *)
Definition rrel (d d' : string) (a a' : arun) : Prop := a' = a \/ (a_dag a = d /\ a' = set_dag d' a).
(* what Spec.sp_apply maps over the runs for ORename d d' (it has no name there): h_runs (sp_apply H (ORename d d')) is map (postf d d') (h_runs H)
   by conversion *)
Definition postf (d d' : string) (b : arun) : arun := if String.eqb (a_dag b) d then set_dag d' b else b.

Lemma postf_same d d' b : a_id (postf d d' b) = a_id b /\ a_req (postf d d' b) = a_req b /\ a_stamp (postf d d' b) = a_stamp b.
Proof. unfold postf. destruct (String.eqb (a_dag b) d); auto. Qed.
Lemma postf_dag d d' b : a_dag b = d \/ a_dag b = d' -> a_dag (postf d d' b) = d'.
Proof. intros [Db|Db]; unfold postf; rewrite Db; [rewrite String.eqb_refl; reflexivity|]. destruct (String.eqb d' d); auto. Qed.
(* a rename only merges DAGs *)
Lemma hist_ok_pre H d d' : hist_ok (sp_apply H (ORename d d')) -> hist_ok H.
Proof.
  intros O' x y Ix Iy C. unfold clash in C. rewrite andb_true_iff, orb_true_iff, !String.eqb_eq in C. destruct C as [Cd C].
  destruct (postf_same d d' x) as [X1 [X2 X3]], (postf_same d d' y) as [Y1 [Y2 Y3]]. rewrite <- X1, <- Y1.
  apply O'; try (apply (in_map (postf d d')); assumption). apply clash_true; [|rewrite X2, X3, Y2, Y3; exact C].
  unfold postf. rewrite Cd. destruct (String.eqb (a_dag y) d); [reflexivity|exact Cd].
Qed.
Lemma rrel_postf d d' x x' : d <> d' -> rrel d d' x x' -> postf d d' x' = postf d d' x.
Proof.
  intros Nd [->|[Dx ->]]; [reflexivity|]. unfold postf. cbn [a_dag set_dag]. rewrite Dx, String.eqb_refl.
  destruct (String.eqb_spec d' d); [congruence|reflexivity].
Qed.
Lemma mixed_post_ok H H' d d' l : d <> d' -> hist_ok (sp_apply H (ORename d d')) ->
  Permutation l (h_runs H) -> Forall2 (rrel d d') l (h_runs H') -> hist_ok (sp_apply H' (ORename d d')).
Proof.
  intros Nd O' Pl F.
  assert (T : forall a, In a (h_runs (sp_apply H' (ORename d d'))) -> In a (h_runs (sp_apply H (ORename d d')))).
  { intros a Ia. apply in_map_iff in Ia. destruct Ia as [x' [E Ix]]. destruct (Forall2_in_r _ _ _ _ F Ix) as [x [Jx Rx]]. rewrite <- E.
    change (In (postf d d' x') (map (postf d d') (h_runs H))). rewrite (rrel_postf d d' x x' Nd Rx). apply in_map, (Permutation_in _ Pl), Jx. }
  intros a b Ia Ib. apply O'; auto.
Qed.
(* P1 for a run map between BEFORE and AFTER: a run of another DAG is found intact, a run of d under exactly one of the two names *)
Lemma rename_P1 H H' d d' l a : d <> d' -> hist_okb (sp_apply H (ORename d d')) = true -> hist_okb H' = true ->
  NoDup (map a_id (h_runs H)) -> Permutation l (h_runs H) -> Forall2 (rrel d d') l (h_runs H') -> In a (h_runs H) -> a_req a <> "" ->
  (a_dag a <> d -> sp_find H' (a_dag a) (a_req a) = last_opt (a_sts a))
  /\ (a_dag a = d -> (sp_find H' d (a_req a) = last_opt (a_sts a) /\ sp_find H' d' (a_req a) = None)
                     \/ (sp_find H' d (a_req a) = None /\ sp_find H' d' (a_req a) = last_opt (a_sts a))).
Proof.
  intros Nd O' OK' N Pl F Ia Nr. apply hist_okb_iff in O'. pose proof (mixed_post_ok H H' d d' l Nd O' Pl F) as OP.
  assert (N' : NoDup (map a_id (h_runs H'))).
  { replace (map a_id (h_runs H')) with (map a_id l). { apply (Permutation_NoDup (Permutation_map a_id (Permutation_sym Pl))), N. }
    clear Pl. induction F as [|x y l1 l2 Rxy _ IH]; simpl; auto. f_equal; auto. destruct Rxy as [E|[_ E]]; subst y; reflexivity. }
  destruct (Forall2_in_l _ _ _ _ F (Permutation_in _ (Permutation_sym Pl) Ia)) as [a' [Ia' Ra]].
  assert (EA : a_req a' = a_req a /\ a_sts a' = a_sts a /\ (a_dag a = d -> a_dag a' = d \/ a_dag a' = d'))
    by (destruct Ra as [Ra|[_ Ra]]; subst a'; auto).
  destruct EA as [E1 [E2 E3]].
  assert (OWN : sp_find H' (a_dag a') (a_req a) = last_opt (a_sts a)).
  { rewrite <- E1, <- E2. apply sp_find_own; auto. congruence. }
  (* no run under the OTHER name carries a's request id: AFTER the rename it would be a second run of d' with that id *)
  assert (NONE : forall other, a_dag a' <> other -> other = d \/ other = d' -> a_dag a = d -> sp_find H' other (a_req a) = None).
  { intros other No Oth Dd. unfold sp_find. apply String.eqb_neq in Nr. rewrite Nr.
    destruct (find (is_run other (a_req a)) (h_runs H')) as [b'|] eqn:Fb; auto. exfalso.
    apply find_some in Fb. destruct Fb as [Ib' Rb]. apply is_run_iff in Rb. destruct Rb as [Rb1 [Rb2 _]].
    destruct (postf_same d d' a') as [X1 [X2 _]], (postf_same d d' b') as [Y1 [Y2 _]].
    assert (a_id a' = a_id b').
    { rewrite <- X1, <- Y1. apply OP; try (apply (in_map (postf d d')); assumption).
      apply clash_true; [rewrite !postf_dag; auto; rewrite Rb1; exact Oth|left; congruence]. }
    assert (a' = b') by (apply (NoDup_map_inj a_id (h_runs H')); auto). subst b'. auto. }
  split.
  - intros Nda. destruct Ra as [Ra|[Ra _]]; [subst a'; exact OWN | contradiction].
  - intros Dd. destruct Ra as [Ra|[_ Ra]]; subst a'.
    + left. rewrite <- Dd at 1. split; [exact OWN|]. apply NONE; auto. rewrite Dd. exact Nd.
    + right. split; [|exact OWN]. apply NONE; auto.
Qed.

Section K.
Variable kname : skey -> string.
Variable kpath : skey -> string.

Definition answers_as (s' : sfs) (H : hist) : Prop :=
  forall d, (forall req, fres_payload (sq_find kname kpath s' d req) = sp_find H d req)
         /\ (forall day, snd (sq_latest kname [] s' d day) = sp_latest H d day)
         /\ (forall n, snd (sq_recent kname [] s' d n) = sp_recent H d n).

Definition related (s' : sfs) (H : hist) : Prop := exists L, R2g false (dead s') (hdead H) L.
Lemma related_answers s' H : related s' H -> hist_okb H = true -> answers_as s' H.
Proof.
  intros [L R] O d. assert (O' : hist_okb (hdead H) = true) by exact O.
  split; [|split].
  - intros req. apply (find_refines kname kpath false (dead s') (hdead H) L d req R O').
  - intros day. apply (latest_refines kname false (dead s') (hdead H) L [] d day R O' (cache_sound_nil s')).
  - intros n. apply (recent_refines kname false (dead s') (hdead H) L [] d n R O' (cache_sound_nil s')).
Qed.

Definition H_of (next : nat) (L : pairing) : hist := {| h_runs := map snd L; h_cur := None; h_next := next |}.
Lemma R2g_relax st h H L s' H' : R2g st h H L -> sfiles s' = sfiles (sst h) ->
  (forall d, shas_dir (sst h) d = true -> shas_dir s' d = true) ->
  Permutation (map snd L) (h_runs H') -> h_next H' = h_next H -> R2g false (dead s') (hdead H') L.
Proof.
  intros R E Dd Ps En. destruct (R2g_elim R) as [Nk [Ni Ex]]. apply R2g_intro; cbn [dead hdead sst swr h_runs h_cur h_next]; auto.
  - rewrite E. apply (r_fst R).
  - exact I.
  - intros x Ix. destruct (Ex x Ix) as [[[F1 [F2 [F3 [F4 [_ [_ F7]]]]]] [D T]] Lt]. rewrite En.
    split; [split; [|split; [apply Dd, D|exact T]]|exact Lt]. unfold frun. repeat split; auto; discriminate.
Qed.
Lemma R2g_weaken h H L : R2 h H L -> R2g false (dead (sst h)) (hdead H) L.
Proof. intros R. apply (R2g_relax true h H L); auto. apply (r_snd R). Qed.
Lemma mkdir_related s H L d : R2g false (dead s) (hdead H) L -> R2g false (dead (run_sprim s (SMkdir d))) (hdead H) L.
Proof. intros R. apply (R2g_relax false (dead s) (hdead H) L); auto using mkdir_files, mkdir_dir_mono. apply (r_snd R). Qed.
Lemma related_pre h H L : R2 h H L -> related (sst h) H.
Proof. intros R. exists L. apply R2g_weaken; auto. Qed.
Lemma related_post h H L seen o : R2 h H L -> hist_okb H = true -> incl (keys (sst h)) seen -> op_okb h seen o = true ->
  related (sst (sapply kname kpath h o)) (sp_apply H o).
Proof. intros R O IS P. destruct (step_sim kname kpath h H L seen o R O IS P) as [L' R']. apply (related_pre _ _ L'); auto. Qed.
Lemma H_of_ok st s H L : R2g st (dead s) (hdead H) L -> hist_okb H = true -> forall L', incl L' L -> hist_okb (H_of (h_next H) L') = true.
Proof.
  intros R O L' S. apply hist_okb_iff. apply hist_okb_iff in O. intros a b Ia Ib. apply in_map_iff in Ia, Ib.
  destruct Ia as [x [Ex Ix]], Ib as [y [Ey Iy]]. subst a b. apply O; apply (L_in_run R); auto.
Qed.

Lemma scrash_app_in a : forall s b x, In x (scrash_from s (a ++ b)) -> In x (scrash_from s a) \/ In x (scrash_from (run_sprims s a) b).
Proof.
  induction a as [|p a IH]; intros s b x; cbn [app scrash_from run_sprims fold_left]; auto.
  intros [E|I]; [left; left; exact E|]. apply in_app_or in I. destruct I as [I|I]. { left. right. apply in_or_app. left. exact I. }
  destruct (IH _ _ _ I) as [J|J]; [left; right; apply in_or_app; right; exact J | right; exact J].
Qed.
Lemma scrash_skip s p ps x : storn p = [] -> run_sprim s p = s -> In x (scrash_from s (p :: ps)) -> In x (scrash_from s ps).
Proof. intros T E IN. cbn [scrash_from] in IN. rewrite T, E in IN. destruct IN as [<-|IN]; [destruct ps; left; reflexivity|exact IN]. Qed.
Lemma scrash_untorn {A} (f : A -> sprim) : (forall k, storn (f k) = []) ->
  forall ks s x, In x (scrash_from s (map f ks)) -> exists n, x = run_sprims s (map f (firstn n ks)).
Proof.
  intros T. induction ks as [|k ks IH]; intros s x IN; cbn [map scrash_from] in IN.
  - destruct IN as [IN|[]]. exists 0%nat. auto.
  - rewrite T in IN. destruct IN as [IN|IN]. { exists 0%nat. auto. }
    destruct (IH _ _ IN) as [n E]. exists (S n). exact E.
Qed.

(* appends (Write, Update): every crash state holds, at key k, the old file or a file that parses to the old status
   or to the new one *)
Definition appended (p : payload) (g : file -> file) : Prop :=
  forall f, ftail f = TNone -> parse (g f) = parse f \/ (parse (g f) = Some p).

Lemma crash_appends k now p s x : In x (scrash_from s (map (fun c => SAppend k c now) (chunks_of p))) ->
  exists g, x = {| sdirs := sdirs s; sfiles := upd_key k g (sfiles s) |} /\ appended p g.
Proof.
  (* in both shapes of the chunk list: nothing, a torn prefix, the JSON text without its newline, everything *)
  assert (ST : scrash_from s (map (fun c => SAppend k c now) (chunks_of p))
               = [run_sprims s (map (fun c => SAppend k c now) []); run_sprims s (map (fun c => SAppend k c now) [CPart 1]);
                  run_sprims s (map (fun c => SAppend k c now) [CJson p]); run_sprims s (map (fun c => SAppend k c now) (chunks_of p))])
    by (unfold chunks_of; destruct (p_size p <? 4096)%Z; reflexivity).
  rewrite ST. intros IN.
  assert (G : forall cs, appended p (appends cs now) ->
            exists g, run_sprims s (map (fun c => SAppend k c now) cs) = {| sdirs := sdirs s; sfiles := upd_key k g (sfiles s) |} /\ appended p g).
  { intros cs A. exists (appends cs now). split; [apply run_appends|exact A]. }
  destruct IN as [E|[E|[E|[E|[]]]]]; subst x; apply G; intros f T; unfold appends; cbn [fold_left].
  - auto.
  - left. unfold append_chunk, parse. simpl. rewrite T. reflexivity.
  - right. unfold append_chunk, parse. simpl. rewrite T. reflexivity.
  - right. fold (appends (chunks_of p) now f). rewrite (appends_status p now f T). apply parse_rec_snoc.
Qed.

Lemma appends_related h H L e0 a0 p now s' :
  R2 h H L -> In (e0, a0) L -> p_req p = a_req a0 ->
  In s' (scrash_from (sst h) (map (fun c => SAppend (fst e0) c now) (chunks_of p))) ->
  let H1 := {| h_runs := upd_run (a_id a0) (add_status p now) (h_runs H); h_cur := h_cur H; h_next := h_next H |} in
  related s' H \/ related s' H1.
Proof.
  intros R I0 Pr IN H1. apply crash_appends in IN. destruct IN as [g [Es AP]]. subst s'.
  set (s' := {| sdirs := sdirs (sst h); sfiles := upd_key (fst e0) g (sfiles (sst h)) |}).
  pose proof (R2g_weaken h H L R) as RW.
  destruct (L_frun R _ I0) as [F1 [F2 [F3 [F4 [F5 [F6 F7]]]]]]. cbn [fst snd] in *.
  destruct (AP (snd e0) (F5 eq_refl)) as [PA|PA].
  - left. exists (map (upd_pair (fst e0) g (fun a => a)) L).
    apply (R2_update false (dead (sst h)) (hdead H) L (fst e0) (a_id a0) g (fun a => a) (dead s') (hdead H) e0 a0); auto.
    + unfold frun. cbn [fst snd]. rewrite PA. repeat split; auto; discriminate.
    + intros a. split; reflexivity.
    + symmetry. apply upd_run_same. auto.
  - right. exists (map (upd_pair (fst e0) g (add_status p now)) L).
    apply (R2_update false (dead (sst h)) (hdead H) L (fst e0) (a_id a0) g (add_status p now) (dead s') (hdead H1) e0 a0); auto using pres_add.
    unfold frun. cbn [fst snd a_dag a_stamp a_req a_sts add_status]. rewrite PA, last_opt_snoc. repeat split; auto; try discriminate. apply Forall_app. split; auto.
Qed.

Lemma crash_write_rel h H L tag size now s' :
  R2 h H L -> In s' (scrash_states kname kpath h (OWrite tag size now)) ->
  related s' H \/ related s' (sp_apply H (OWrite tag size now)).
Proof.
  intros R IN. unfold scrash_states in IN. cbn [sprims] in IN. cbn [sp_apply].
  destruct (swr h) as [w|] eqn:EW.
  2:{ destruct IN as [IN|[]]. subst s'. left. apply (related_pre h H L); auto. }
  destruct (wr_pair R w EW) as [e0 [a0 [I0 [E1 [EC [E3 [W1 W2]]]]]]]. rewrite W1 in IN. rewrite EC.
  rewrite (get_run_unique _ _ a0 (r_ids R) (L_in_run R _ I0) eq_refl), <- E3.
  rewrite <- E1 in IN. apply (appends_related h H L e0 a0 _ now); auto.
Qed.

Lemma crash_update_rel h H L d req tag size now s' :
  R2 h H L -> hist_okb H = true -> In s' (scrash_states kname kpath h (OUpdate d req tag size now)) ->
  related s' H \/ related s' (sp_apply H (OUpdate d req tag size now)).
Proof.
  intros R O IN. unfold scrash_states in IN. cbn [sprims] in IN. cbn [sp_apply].
  pose proof (find_refines_pair kname kpath true h H L d req R O) as F.
  destruct (sq_find kname kpath (sst h) d req) as [|k p0] eqn:Q.
  { destruct IN as [IN|[]]. subst s'. left. apply (related_pre h H L); auto. }
  destruct F as [Nr [e [a [I [E1 [E2 [E3 E4]]]]]]]. apply String.eqb_neq in Nr. rewrite Nr, E4.
  assert (Ie : In e (sfiles (sst h))) by (apply (L_in_file R _ I)).
  assert (Dk : shas_dir (sst h) (k_dag k) = true). { rewrite <- E1. apply (r_dirs R); auto. }
  assert (Ik : In k (keys (sst h))). { rewrite <- E1. unfold keys. apply in_map. auto. }
  (* the file has no torn tail: writer.open is mkdir + create, both without effect *)
  rewrite (sopen_clean (sst h) k (snd e)) in IN.
  2:{ rewrite <- E1. apply (L_sget R e a I). } 2:{ apply (frun_tail e a (L_frun R _ I)). }
  cbn [app] in IN. apply scrash_skip in IN; [|reflexivity|apply mkdir_noop, Dk]. apply scrash_skip in IN; [|reflexivity|apply create_noop, Ik].
  rewrite <- E1 in IN. apply find_some in E4. destruct E4 as [_ IR]. apply is_run_iff in IR.
  apply (appends_related h H L e a _ now); auto. symmetry. apply IR.
Qed.

Lemma crash_open_rel h H L seen d stamp req now s' :
  R2 h H L -> hist_okb H = true -> incl (keys (sst h)) seen -> op_okb h seen (OOpen d stamp req now) = true ->
  In s' (scrash_states kname kpath h (OOpen d stamp req now)) ->
  related s' H \/ related s' (sp_apply H (OOpen d stamp req now)).
Proof.
  intros R O IS P IN. pose proof (related_post h H L seen _ R O IS P) as POST.
  unfold scrash_states in IN. unfold sapply in POST. cbn [sprims sst] in IN, POST.
  assert (Nk : ~ In (mkkey d stamp (trunc8 req) false) (keys (sst h))).
  { simpl in P. apply andb_prop in P. destruct P as [P1 _]. apply negb_true_iff in P1. apply memk_false in P1. intro X. apply P1, IS, X. }
  rewrite (sopen_fresh _ _ now Nk) in IN, POST. cbn [scrash_from storn map app run_sprims fold_left] in IN, POST.
  (* before the mkdir, after it, after the create *)
  destruct IN as [X|[X|[X|[]]]]; subst s'.
  - left. apply (related_pre h H L); auto.
  - left. exists L. apply mkdir_related, R2g_weaken, R.
  - right. exact POST.
Qed.

(* a status update recorded by a NEW process on a store related to a run map (torn tails and all): writer.open terminates a torn
   last line (32b069b), so the update becomes the last complete line of the file and the relation is kept (sim_update_g) *)
Lemma hist_okb_update H d req tag size now : hist_okb (sp_apply H (OUpdate d req tag size now)) = hist_okb H.
Proof.
  simpl. destruct (String.eqb req ""); auto. destruct (find (is_run d req) (h_runs H)) as [a|]; auto.
  unfold hist_okb. cbn [h_runs]. unfold upd_run.
  set (g := fun a0 : arun => if Nat.eqb (a_id a0) (a_id a) then add_status {| p_req := req; p_tag := tag; p_size := size |} now a0 else a0).
  assert (G : forall x y, implb (clash (g x) (g y)) (Nat.eqb (a_id (g x)) (a_id (g y))) = implb (clash x y) (Nat.eqb (a_id x) (a_id y))).
  { intros x y. unfold g. destruct (Nat.eqb (a_id x) (a_id a)), (Nat.eqb (a_id y) (a_id a)); reflexivity. }
  rewrite forallb_map. apply forallb_ext_in. intros x _. rewrite forallb_map. apply forallb_ext_in. intros y _. apply G.
Qed.
Lemma related_update s H d req tag size now : related s H -> hist_okb H = true ->
  related (sst (sapply kname kpath (dead s) (OUpdate d req tag size now))) (sp_apply H (OUpdate d req tag size now)).
Proof.
  intros [L R] O.
  destruct (sim_update_g kname kpath false (dead s) (hdead H) L d req tag size now R O) as [L' R'].
  exists L'. replace (dead _) with (sapply kname kpath (dead s) (OUpdate d req tag size now)).
  - replace (hdead _) with (sp_apply (hdead H) (OUpdate d req tag size now)); [exact R'|].
    simpl. destruct (String.eqb req ""); auto. destruct (find (is_run d req) (h_runs H)); reflexivity.
  - unfold sapply. cbn [sst dead swr scch]. destruct (sq_find kname kpath s d req); reflexivity.
Qed.

Definition qeq (s s' : sfs) : Prop := forall d,
  (forall req, sq_find kname kpath s' d req = sq_find kname kpath s d req)
  /\ (forall day, pq_latest kname s' d day = pq_latest kname s d day)
  /\ (forall n, pq_recent kname s' d n = pq_recent kname s d n).
Lemma qeq_answers s s' H : qeq s s' -> answers_as s H -> answers_as s' H.
Proof.
  intros Q A d. destruct (Q d) as [Q1 [Q2 Q3]], (A d) as [A1 [A2 A3]]. split; [|split].
  - intros req. rewrite Q1. apply A1.
  - intros day. rewrite (sq_latest_pure kname [] s' d day (cache_sound_nil s')), Q2, <- (sq_latest_pure kname [] s d day (cache_sound_nil s)). apply A2.
  - intros n. rewrite (sq_recent_pure kname [] s' d n (cache_sound_nil s')), Q3, <- (sq_recent_pure kname [] s d n (cache_sound_nil s)). apply A3.
Qed.
Lemma pq_ext s s' d : (forall pk, listing kname s' d pk = listing kname s d pk) ->
  (forall pk e, In e (listing kname s d pk) -> load_pure s' (fst e) = load_pure s (fst e)) ->
  (forall day, pq_latest kname s' d day = pq_latest kname s d day) /\ (forall n, pq_recent kname s' d n = pq_recent kname s d n).
Proof.
  intros Hl Hp.
  assert (LE : forall pk, loads s' (listing kname s' d pk) = loads s (listing kname s d pk)).
  { intros pk. rewrite Hl. unfold loads. specialize (Hp pk). induction (listing kname s d pk) as [|e l IH]; simpl; auto.
    rewrite (Hp e (or_introl eq_refl)), IH; auto. intros e0 I0. apply Hp. right. exact I0. }
  unfold pq_latest, pq_recent. split; intros; rewrite LE; reflexivity.
Qed.

Definition nk (k : skey) (e : sent) : bool := negb (skey_eqb k (fst e)).
Lemma existsb_filter_irr {A} (f P : A -> bool) l : (forall m, In m l -> P m = false -> f m = false) -> existsb f (filter P l) = existsb f l.
Proof.
  induction l as [|m l IH]; simpl; intros Hm; auto. destruct (P m) eqn:E; simpl.
  - rewrite IH; auto.
  - rewrite (Hm m (or_introl eq_refl) E). simpl. apply IH. auto.
Qed.
Lemma sdrop_unlink l k : k_c k = false -> (In k (map fst l) -> In (twin k) (map fst l)) ->
  sdrop_compacted (filter (nk k) l) = sdrop_compacted l.
Proof.
  intros C Tw. unfold sdrop_compacted. rewrite filter_filter. apply filter_ext_in. intros e Ie.
  (* k is nobody's compacted twin, so its removal changes no verdict; k itself is dropped *)
  replace (sdropped (filter (nk k) l) e) with (sdropped l e).
  2:{ unfold sdropped. f_equal. symmetry. apply existsb_filter_irr. intros m _ Pm. apply negb_false_iff, skey_eqb_eq in Pm.
      rewrite <- Pm. apply skey_eqb_neq. intro X. rewrite <- X in C. discriminate. }
  unfold nk. destruct (skey_eqb_spec k (fst e)) as [E|]; [|reflexivity]. symmetry. apply negb_false_iff. unfold sdropped. rewrite <- E, C.
  assert (Im : In (twin k) (map fst l)) by (apply Tw; rewrite E; apply in_map, Ie). apply in_map_iff in Im. destruct Im as [m [Em Im]].
  apply existsb_exists. exists m. split; [exact Im|]. rewrite Em. apply skey_eqb_refl.
Qed.
Lemma sglob_unlink s k d pk : sglob kname (run_sprim s (SUnlink k)) d pk = filter (nk k) (sglob kname s d pk).
Proof.
  unfold sglob. change (shas_dir (run_sprim s (SUnlink k)) d) with (shas_dir s d). destruct (shas_dir s d); [|reflexivity].
  cbn [run_sprim sfiles]. rewrite (filter_comm (nk k)). f_equal. rewrite filter_comm. symmetry.
  apply (isort_filter (fun e : sent => kname (fst e)) (nk k)).
Qed.
Lemma sglob_unlink_tmp s k d pk : k_tmp k = true -> sglob kname (run_sprim s (SUnlink k)) d pk = sglob kname s d pk.
Proof.
  intros T. rewrite sglob_unlink. transitivity (filter (fun _ : sent => true) (sglob kname s d pk)); [|apply filter_true].
  apply filter_ext_in. intros e Ie. apply sglob_iff in Ie. destruct Ie as [_ [_ [_ P]]]. apply andb_prop in P. destruct P as [P _].
  apply negb_true_iff, skey_eqb_neq. intro X. rewrite <- X, T in P. discriminate.
Qed.
Lemma unlink_qeq S k : (forall d req, sq_find kname kpath S d req = sq_find kname kpath (run_sprim S (SUnlink k)) d req) ->
  (forall d pk, listing kname (run_sprim S (SUnlink k)) d pk = listing kname S d pk) -> qeq (run_sprim S (SUnlink k)) S.
Proof.
  intros F Ls d. split; [intros req; apply F|]. apply pq_ext.
  - intros pk. symmetry. apply Ls.
  - intros pk e Ie. unfold load_pure. rewrite sget_unlink. destruct (skey_eqb_spec (fst e) k) as [E|]; [|reflexivity]. exfalso.
    apply listing_in in Ie. rewrite sglob_unlink in Ie. apply filter_In in Ie. destruct Ie as [_ Ne].
    unfold nk in Ne. rewrite E, skey_eqb_refl in Ne. discriminate.
Qed.
(* FindByRequestID next to a shadowed file: the lookup scans the matches in REVERSE path order, so a file k whose every hit is also
   a hit of a file with a larger path (the compacted copy next to its original) is never the file found *)
Lemma sorted_earlier {A} (key : A -> string) l1 x l2 y : StronglySorted (asc key) (l1 ++ x :: l2) -> In y l1 -> String.ltb (key x) (key y) = false.
Proof.
  induction l1 as [|a l1 IH]; simpl; intros S I; [tauto|]. inversion S as [|? ? S' F]; subst. destruct I as [I|I]; auto.
  subst a. rewrite Forall_forall in F. apply F. apply in_or_app. right. simpl. auto.
Qed.

Definition shadowed (S : sfs) (k : skey) : Prop :=
  exists ey, In ey (sfiles S) /\ k_dag (fst ey) = k_dag k /\ k_tmp (fst ey) = false /\ String.ltb (kpath k) (kpath (fst ey)) = true
    /\ (forall ex, In ex (sfiles S) -> fst ex = k -> forall rq, reqP rq ex = true -> reqP rq ey = true).
Lemma find_unlink_shadow S k d req : shadowed S k ->
  sq_find kname kpath S d req = sq_find kname kpath (run_sprim S (SUnlink k)) d req.
Proof.
  intros [ey [Iy [Dy [Ty [Ly Py]]]]]. unfold sq_find. rewrite sglob_unlink, !sfind_in_eq. destruct (String.eqb req ""); auto.
  set (l := sglob kname S d PAll). set (KP := fun e : sent => kpath (fst e)).
  change (fun x y : sent => String.ltb (kpath (fst x)) (kpath (fst y))) with (klt KP).
  rewrite <- (isort_filter KP (nk k) l), <- filter_rev', (filter_comm (reqP req) (nk k)).
  (* the hits, by descending path: the first one is not the file k, because ey is a hit too *)
  set (X := filter (reqP req) (rev (isort (klt KP) l))).
  assert (HX : isort (klt KP) (filter (reqP req) l) = rev X) by (unfold X; rewrite filter_rev', rev_involutive, isort_filter; reflexivity).
  destruct X as [|e r]; [reflexivity|]. cbn [filter rev] in *.
  enough (N : nk k e = true) by (rewrite N; reflexivity). apply negb_true_iff, skey_eqb_neq. intros Ne.
  assert (Ie : In e (filter (reqP req) l)). { eapply Permutation_in; [apply isort_perm|]. rewrite HX. apply in_or_app. right. left. reflexivity. }
  apply filter_In in Ie. destruct Ie as [Il Pe]. apply sglob_iff in Il. destruct Il as [Dd [If [Ed Pk]]].
  assert (Iyl : In ey (rev r ++ [e])).
  { rewrite <- HX. eapply Permutation_in; [apply Permutation_sym, isort_perm|]. apply filter_In. split; [|apply (Py e If (eq_sym Ne) req Pe)].
    apply sglob_iff. repeat split; auto. { rewrite Dy, Ne. exact Ed. } unfold in_patk. rewrite Ty. reflexivity. }
  pose proof (isort_sorted KP (filter (reqP req) l)) as SS. rewrite HX in SS. rewrite Ne in Ly.
  apply in_app_or in Iyl. destruct Iyl as [Iyl|[Iyl|[]]].
  - pose proof (sorted_earlier KP (rev r) e [] ey SS Iyl) as Y. unfold KP in Y. congruence.
  - subst ey. rewrite sltb_irrefl in Ly. discriminate.
Qed.
Lemma published_qeq S k : k_c k = false -> k_tmp k = false -> In (twin k) (keys S) -> shadowed S k -> qeq (run_sprim S (SUnlink k)) S.
Proof.
  intros C T Tw Sh. apply unlink_qeq; [intros d req; apply find_unlink_shadow, Sh|].
  intros d pk. unfold listing. rewrite sglob_unlink. f_equal. apply (sdrop_unlink (sglob kname S d pk) k C).
  intros I. apply in_map_iff in I. destruct I as [e [E I]]. apply sglob_iff in I. destruct I as [Dd [If [Ed Pk]]].
  unfold keys in Tw. apply in_map_iff in Tw. destruct Tw as [m [Em Im]].
  apply in_map_iff. exists m. split; auto. apply sglob_iff. rewrite Em, <- E in *. repeat split; auto.
  unfold in_patk in *. change (k_tmp (twin (fst e))) with false. change (k_stamp (twin (fst e))) with (k_stamp (fst e)). rewrite T in Pk. exact Pk.
Qed.

(* a file the queries do not see: a temporary copy, or an original next to its published compacted copy *)
Definition hidden (S : sfs) (k : skey) : Prop :=
  k_tmp k = true \/ (k_c k = false /\ k_tmp k = false /\ NoDup (keys S) /\ In (twin k) (keys S) /\ shadowed S k).
Lemma hidden_qeq S k : hidden S k -> qeq (run_sprim S (SUnlink k)) S.
Proof.
  intros [T|[C [T [_ [Tw Sh]]]]]; [|apply published_qeq; auto].
  apply unlink_qeq; intros; unfold sq_find, listing; rewrite sglob_unlink_tmp; auto.
Qed.

(* an update by a new process on a store S with a hidden file k: the lookup finds the same file as in the store without k, and appends
   to it the same chunks, so removing k afterwards gives the updated store without k *)
Lemma upd_key_filter k kf g l : filter (nk k) (upd_key kf g l) = upd_key kf g (filter (nk k) l).
Proof.
  unfold upd_key. rewrite filter_map_comm. f_equal. apply filter_ext. intros e. unfold nk.
  destruct (skey_eqb_spec kf (fst e)) as [->|]; reflexivity.
Qed.
Lemma update_unlink_comm S k d req tag size now : qeq (run_sprim S (SUnlink k)) S ->
  sst (sapply kname kpath (dead (run_sprim S (SUnlink k))) (OUpdate d req tag size now))
  = run_sprim (sst (sapply kname kpath (dead S) (OUpdate d req tag size now))) (SUnlink k).
Proof.
  intros Q. unfold sapply. cbn [sprims sst dead]. rewrite <- (proj1 (Q d) req).
  destruct (sq_find kname kpath S d req) as [|kf p] eqn:F; [reflexivity|]. cbn [sst].
  assert (Nkf : skey_eqb kf k = false).
  { apply skey_eqb_neq. intro X. subst kf. rewrite (proj1 (Q d) req) in F. apply sfind_in_inv in F. destruct F as [e [I [E _]]].
    apply sglob_iff in I. destruct I as [_ [I _]]. apply filter_In in I. rewrite E, skey_eqb_refl in I. destruct I; discriminate. }
  apply sfind_in_inv in F. destruct F as [e [Ie [Ee _]]]. apply sglob_iff in Ie. destruct Ie as [Dd [Ie [De _]]]. rewrite <- De, Ee in Dd.
  destruct (sget S kf) as [f|] eqn:G; [|apply sget_none in G; exfalso; apply G; rewrite <- Ee; apply in_map, Ie].
  (* the same file f under kf in both stores, so the same function is applied to it *)
  assert (G' : sget (run_sprim S (SUnlink k)) kf = Some f) by (rewrite sget_unlink, Nkf; exact G).
  destruct (sopen_appends S kf f {| p_req := req; p_tag := tag; p_size := size |} now G Dd) as [RUN _].
  destruct (sopen_appends _ kf f {| p_req := req; p_tag := tag; p_size := size |} now G' Dd) as [RUN' _].
  rewrite RUN, RUN'. cbn [run_sprim sdirs sfiles]. f_equal. symmetry. apply upd_key_filter.
Qed.
(* the request id every file answers to is kept: the file the update appends to was found by the request id of the appended status *)
Lemma update_keeps S d req tag size now : NoDup (keys S) ->
  exists phi : sent -> sent,
    sst (sapply kname kpath (dead S) (OUpdate d req tag size now)) = {| sdirs := sdirs S; sfiles := map phi (sfiles S) |}
    /\ forall e, In e (sfiles S) -> fst (phi e) = fst e /\ forall rq, reqP rq (phi e) = reqP rq e.
Proof.
  intros ND. unfold sapply. cbn [sprims sst dead]. destruct (sq_find kname kpath S d req) as [|kf p] eqn:F; cbn [sst].
  { exists (fun e => e). rewrite map_id. destruct S. auto. }
  apply sfind_in_inv in F. destruct F as [e [Ie [Ee [Pe Re]]]]. apply sglob_iff in Ie. destruct Ie as [Dd [Ie [De _]]]. subst kf.
  destruct (sopen_appends S (fst e) (snd e) {| p_req := req; p_tag := tag; p_size := size |} now) as [RUN [[its GF] _]].
  { apply in_sget; auto. destruct e; exact Ie. } { rewrite De. exact Dd. }
  rewrite RUN. eexists. split; [reflexivity|]. intros x Ix. cbv beta. destruct (skey_eqb_spec (fst e) (fst x)) as [E|]; [|auto].
  assert (x = e) by (apply (NoDup_map_inj fst (sfiles S)); auto). subst x. split; [reflexivity|].
  intros rq. unfold reqP. cbn [snd]. rewrite GF, parse_rec_snoc, Pe. cbn [p_req]. rewrite Re. reflexivity.
Qed.
Lemma shadowed_map S k (phi : sent -> sent) : (forall e, In e (sfiles S) -> fst (phi e) = fst e /\ forall rq, reqP rq (phi e) = reqP rq e) ->
  shadowed S k -> shadowed {| sdirs := sdirs S; sfiles := map phi (sfiles S) |} k.
Proof.
  intros K [ey [Iy [Dy [Ty [Ly Py]]]]]. destruct (K ey Iy) as [Ey Ry]. exists (phi ey). cbn [sfiles]. rewrite Ey.
  split; [apply in_map, Iy|]. do 3 (split; [assumption|]).
  intros ex Ix Ex rq. apply in_map_iff in Ix. destruct Ix as [e [E Ie]]. subst ex. destruct (K e Ie) as [Ee Re].
  rewrite Re, Ry. apply Py; congruence.
Qed.
Lemma hidden_update S k d req tag size now : hidden S k ->
  let S2 := sst (sapply kname kpath (dead S) (OUpdate d req tag size now)) in
  hidden S2 k /\ run_sprim S2 (SUnlink k) = sst (sapply kname kpath (dead (run_sprim S (SUnlink k))) (OUpdate d req tag size now)).
Proof.
  intros Hd S2. split; [|symmetry; apply update_unlink_comm, hidden_qeq, Hd].
  destruct Hd as [T|[C [T [ND [Tw Sh]]]]]; [left; exact T|right].
  destruct (update_keeps S d req tag size now ND) as [phi [E K]]. unfold S2. rewrite E.
  assert (KS : keys {| sdirs := sdirs S; sfiles := map phi (sfiles S) |} = keys S).
  { unfold keys. cbn [sfiles]. rewrite map_map. apply map_ext_in. intros e Ie. apply K, Ie. }
  rewrite KS. do 4 (split; [assumption|]). apply shadowed_map; assumption.
Qed.

(* s' answers as the run map H, now and after updates by new processes (crel_answers, crel_update) *)
Definition crel (s' : sfs) (H : hist) : Prop := related s' H \/ exists k, hidden s' k /\ related (run_sprim s' (SUnlink k)) H.
Lemma crel_answers s' H : crel s' H -> hist_okb H = true -> answers_as s' H.
Proof. intros [R|[k [Hd R]]] O; [|apply (qeq_answers _ _ _ (hidden_qeq _ _ Hd))]; apply related_answers; auto. Qed.
Lemma crel_update s' H d req tag size now : crel s' H -> hist_okb H = true ->
  crel (sst (sapply kname kpath (dead s') (OUpdate d req tag size now))) (sp_apply H (OUpdate d req tag size now)).
Proof.
  intros [R|[k [Hd R]]] O; [left; apply related_update; auto|right].
  destruct (hidden_update s' k d req tag size now Hd) as [Hd2 E]. exists k. split; [exact Hd2|]. rewrite E. apply related_update; auto.
Qed.
Lemma crel_update_answers s' H d req tag size now : crel s' H -> hist_okb H = true ->
  answers_as (sst (sapply kname kpath (dead s') (OUpdate d req tag size now))) (sp_apply H (OUpdate d req tag size now)).
Proof. intros C O. apply crel_answers; [apply crel_update; auto|]. rewrite hist_okb_update. exact O. Qed.

Lemma unlink_last s k f : ~ In k (keys s) -> run_sprim {| sdirs := sdirs s; sfiles := sfiles s ++ [(k, f)] |} (SUnlink k) = s.
Proof.
  intros N. cbn [run_sprim sdirs sfiles]. rewrite filter_app. cbn [filter fst]. rewrite skey_eqb_refl. cbn [negb]. rewrite app_nil_r.
  apply (unlink_absent s k N).
Qed.
Lemma twin_shadows s k f pl fc : NoDup (keys s) -> In (k, f) (sfiles s) -> k_c k = false ->
  parse f = Some pl -> parse fc = Some pl -> String.ltb (kpath k) (kpath (twin k)) = true ->
  shadowed {| sdirs := sdirs s; sfiles := sfiles s ++ [(twin k, fc)] |} k.
Proof.
  intros ND I0 W2 Pp Pf LT. exists (twin k, fc). cbn [sfiles]. split. { apply in_or_app. right. simpl. auto. }
  do 3 (split; [auto|]).
  intros ex Ix Ex rq Rq. apply in_app_or in Ix. destruct Ix as [Ix|[Ix|[]]].
  - assert (ex = (k, f)) by (apply (NoDup_map_inj fst (sfiles s)); auto). subst ex. unfold reqP in *. cbn [snd] in *. rewrite Pp in Rq. rewrite Pf. exact Rq.
  - subst ex. exfalso. apply (twin_neq k W2). auto.
Qed.

(* the crash states of Close: nothing has happened yet, or everything has; in between there is one hidden file - the temporary copy
   (empty, torn or complete) beside the store BEFORE, or the original beside its published compacted copy, which is the store AFTER *)
Lemma close_states h H L seen now s' :
  R2 h H L -> incl (keys (sst h)) seen -> op_okb h seen (OClose now) = true ->
  (forall w, swr h = Some w -> String.ltb (kpath (sw_key w)) (kpath (twin (sw_key w))) = true) ->
  In s' (scrash_states kname kpath h (OClose now)) ->
  let post := sst (sapply kname kpath h (OClose now)) in
  s' = sst h \/ s' = post \/ exists k, hidden s' k /\ (run_sprim s' (SUnlink k) = sst h \/ run_sprim s' (SUnlink k) = post).
Proof.
  intros R IS P LT IN post. unfold scrash_states in IN. cbn [sprims] in IN. simpl in P.
  destruct (swr h) as [w|] eqn:EW.
  2:{ destruct IN as [IN|[]]. auto. }
  destruct (wr_pair R w EW) as [e0 [a0 [I0 [E1 [EC [E3 [W1 W2]]]]]]].
  pose proof (L_sget R e0 a0 I0) as G0. rewrite E1 in G0. rewrite G0 in IN.
  destruct (parse (snd e0)) as [pl|] eqn:Pp.
  2:{ destruct IN as [IN|[]]. auto. }
  set (k := sw_key w) in *. set (kc := twin k) in *. set (kt := tmpk kc) in *.
  apply andb_prop in P. destruct P as [P _]. apply negb_true_iff in P. apply memk_false in P.
  assert (Nkc : ~ In kc (keys (sst h))) by (intro X; apply P, IS, X).
  assert (Nkt : ~ In kt (keys (sst h))) by (apply tmpk_absent, (r_plain R)).
  assert (Ie0 : In e0 (sfiles (sst h))) by apply (L_in_file R _ I0).
  assert (Dk : shas_dir (sst h) (k_dag kc) = true). { change (k_dag kc) with (k_dag k). rewrite <- E1. apply (r_dirs R), Ie0. }
  set (fc := {| items := [Rec pl]; ftail := TNone; mtime := now |}).
  assert (PS : post = run_sprim {| sdirs := sdirs (sst h); sfiles := sfiles (sst h) ++ [(kc, fc)] |} (SUnlink k)).
  { unfold post, sapply. cbn [sprims sst]. rewrite EW. cbn [sst]. fold k. rewrite G0, Pp. apply (close_run (sst h) k pl now Nkc Nkt Dk). }
  assert (TMP : forall fx, let sx := {| sdirs := sdirs (sst h); sfiles := sfiles (sst h) ++ [(kt, fx)] |} in
            exists k0, hidden sx k0 /\ (run_sprim sx (SUnlink k0) = sst h \/ run_sprim sx (SUnlink k0) = post)).
  { intros fx. exists kt. split; [left; reflexivity|left; apply unlink_last, Nkt]. }
  (* removing the stale temporary copy and creating the directory change nothing; then the copy is created, written, published *)
  cbn [app] in IN. apply scrash_skip in IN; [|reflexivity|apply unlink_absent, Nkt]. apply scrash_skip in IN; [|reflexivity|apply mkdir_noop, Dk].
  cbn [scrash_from storn map app] in IN. rewrite (create_fresh _ kt now Nkt) in IN. destruct IN as [X|IN]; [auto|].
  set (sc := {| sdirs := sdirs (sst h); sfiles := sfiles (sst h) ++ [(kt, empty_file now)] |}) in *.
  assert (UK : forall g, upd_key kt g (sfiles sc) = sfiles (sst h) ++ [(kt, g (empty_file now))]).
  { intros g. unfold sc. cbn [sfiles]. rewrite upd_key_app, (upd_key_absent kt g (sfiles (sst h))) by exact Nkt. rewrite upd_key_single. reflexivity. }
  apply scrash_app_in in IN. destruct IN as [IN|IN].
  - apply crash_appends in IN. destruct IN as [g [Es AP]]. subst s'. rewrite UK. right. right. apply TMP.
  - rewrite run_appends, UK, appends_status in IN by reflexivity. cbn [sdirs sc items empty_file app scrash_from storn map] in IN. fold fc in IN.
    rewrite rename_last in IN; auto; [|apply tmpk_neq; reflexivity].
    destruct IN as [X|[X|[X|[]]]]; subst s'; [right; right; apply TMP| |auto].
    right. right. exists k. split; [|right; symmetry; exact PS]. right. split; [exact W2|]. split. { rewrite <- E1. apply (r_plain R), Ie0. }
    split. { unfold keys. cbn [sfiles]. rewrite map_app. apply NoDup_snoc; [apply (r_keys R)|exact Nkc]. }
    split. { unfold keys. cbn [sfiles]. rewrite map_app. apply in_or_app. right. left. reflexivity. }
    apply (twin_shadows (sst h) k (snd e0) pl fc); auto. { apply (r_keys R). } { rewrite <- E1. destruct e0; exact Ie0. } apply (LT w eq_refl).
Qed.

(* open / write / close / update / chtimes: every crash state answers as the run map BEFORE or AFTER, and keeps doing so when new
   processes record updates.  Close (since eb925d1): the copy is invisible until the rename publishes it; from then on the readers
   drop the original *)
Theorem crash_crel h H L seen o s' :
  R2 h H L -> hist_okb H = true -> incl (keys (sst h)) seen -> op_okb h seen o = true ->
  (forall w, swr h = Some w -> String.ltb (kpath (sw_key w)) (kpath (twin (sw_key w))) = true) ->
  match o with ORename _ _ | ORemoveOld _ _ => False | _ => True end ->
  In s' (scrash_states kname kpath h o) -> crel s' H \/ crel s' (sp_apply H o).
Proof.
  intros R O IS P LT A IN. pose proof (related_pre h H L R) as PRE. pose proof (related_post h H L seen o R O IS P) as POST.
  assert (S : related s' H \/ related s' (sp_apply H o) -> crel s' H \/ crel s' (sp_apply H o)) by (intros [X|X]; [left|right]; left; exact X).
  destruct o; try contradiction.
  - apply S, (crash_open_rel h H L seen); auto.
  - apply S, (crash_write_rel h H L); auto.
  - destruct (close_states h H L seen now s' R IS P LT IN) as [E|[E|[k [Hd [E|E]]]]].
    + subst s'. auto.
    + subst s'. auto.
    + left. right. exists k. rewrite E. auto.
    + right. right. exists k. rewrite E. auto.
  - apply S, (crash_update_rel h H L); auto.
  - (* one step that cannot be torn *)
    apply S. change (In s' [sst h; sst (sapply kname kpath h (OTouch d stamp r8 c t))]) in IN. destruct IN as [X|[X|[]]]; subst s'; auto.
Qed.

Lemma unlinks_related st s H L ks : R2g st (dead s) (hdead H) L ->
  let P := fun x : sent * arun => negb (existsb (fun k => skey_eqb k (kof x)) ks) in
  R2g st (dead (run_sprims s (map SUnlink ks))) (hdead (H_of (h_next H) (filter P L))) (filter P L).
Proof.
  intros R P. rewrite run_unlinks. apply (R2g_filter st (dead s) (hdead H) L P); auto.
  - cbn [dead sst sfiles]. rewrite <- (r_fst R : _ = sfiles s). exact (filter_map_comm fst (fun e => negb (existsb (fun k => skey_eqb k (fst e)) ks)) L).
  - exact I.
Qed.

(* the exact characterisation: a kill inside retention leaves the run map with SOME of the runs that are up for removal already removed
   (each unlink is one primitive step) - and ALL queries answer as that intermediate run map says (P1-P4 for the surviving runs).
   Full before-or-after atomicity is false here (ProofsC07Ex.retention_not_atomic). *)
Theorem crash_removeold_full h H L d cutoff s' :
  R2 h H L -> hist_okb H = true ->
  In s' (scrash_states kname kpath h (ORemoveOld d cutoff)) ->
  exists H', answers_as s' H' /\ hist_okb H' = true
    /\ (forall a, In a (h_runs H') -> In a (h_runs H))
    /\ (forall a, In a (h_runs H) -> ~ (a_dag a = d /\ (a_mtime a < cutoff)%Z) -> In a (h_runs H'))
    /\ NoDup (map a_id (h_runs H')).
Proof.
  intros R O IN. unfold scrash_states in IN. cbn [sprims] in IN. rewrite <- (map_map fst SUnlink) in IN.
  set (ks := map fst (filter (fun e : sent => (mtime (snd e) <? cutoff)%Z) (sglob kname (sst h) d PAll))) in *.
  destruct (scrash_untorn SUnlink (fun _ => eq_refl) ks _ _ IN) as [n E].
  pose proof (unlinks_related false (sst h) H L (firstn n ks) (R2g_weaken h H L R)) as R'. cbv zeta in R'. rewrite <- E in R'.
  set (P := fun x : sent * arun => negb (existsb (fun k => skey_eqb k (kof x)) (firstn n ks))) in *.
  assert (O' : hist_okb (H_of (h_next H) (filter P L)) = true).
  { apply (H_of_ok false (sst h) H L (R2g_weaken h H L R) O). intros x Ix. apply filter_In in Ix. apply Ix. }
  exists (H_of (h_next H) (filter P L)). split; [apply related_answers; auto; exists (filter P L); exact R'|]. split; auto. split; [|split].
  - intros a Ia. apply in_map_iff in Ia. destruct Ia as [x [Ex Ix]]. subst a. apply filter_In in Ix. apply (L_in_run R), Ix.
  - intros a Ia NE. destruct (run_in_L R a Ia) as [e Le]. apply (in_map snd _ (e, a)). apply filter_In. split; auto.
    unfold P. apply negb_true_iff, not_true_is_false. intro X. apply existsb_key, firstn_incl in X. apply NE.
    pose proof (proj2 (existsb_key ks (fst e)) X) as Y. unfold ks in Y.
    rewrite (sglob_sel kname R d _ e (L_in_file R _ Le)) in Y. apply andb_prop in Y. destruct Y as [Y1 Y2].
    pose proof (L_frun R _ Le) as F. cbn [fst snd] in F.
    rewrite <- (frun_dag _ _ _ F), <- (frun_mtime _ _ F). split; [apply String.eqb_eq, Y1 | apply Z.ltb_lt, Y2].
  - apply (r_ids R').
Qed.

Definition mrel (d d' : string) (x x' : sent * arun) : Prop := x' = x \/ (k_dag (kof x) = d /\ x' = mvd d' x).

Lemma renames_related st s n L d d' ks : R2g st (dead s) (hdead (H_of n L)) L -> d <> d' -> shas_dir s d' = true ->
  NoDup ks -> (forall k, In k ks -> In k (keys s) /\ k_dag k = d) -> (forall k, In k ks -> ~ In (rekey d' k) (keys s)) ->
  let phi := mvsel d' (fun k0 => existsb (fun k => skey_eqb k k0) ks) in
  R2g st (dead (run_sprims s (map (fun k => SRename k (rekey d' k)) ks))) (hdead (H_of n (map phi L))) (map phi L)
  /\ forall x, mrel d d' x (phi x).
Proof.
  intros R Nd Dd ND IK FR phi. split.
  - rewrite (run_renames_gen d d' Nd ks s ND IK FR).
    apply (R2g_rekey st (dead s) (hdead (H_of n L)) L d d'); cbn [dead hdead H_of sst swr sfiles sdirs h_runs h_cur h_next]; auto.
    + intros x Ix Sx. apply existsb_key in Sx. destruct (IK _ Sx). split; auto.
    + unfold rekey_in. rewrite <- (r_fst R : _ = sfiles s), map_map. apply map_ext. intros x. unfold mvsel, mvd, kof.
      destruct (existsb (fun k => skey_eqb k (fst (fst x))) ks); reflexivity.
    + rewrite map_map. apply Permutation_refl.
    + exact I.
  - intros x. unfold phi, mvsel. destruct (existsb (fun k => skey_eqb k (kof x)) ks) eqn:Sx; [right|left; reflexivity].
    apply existsb_key in Sx. split; [apply IK, Sx|reflexivity].
Qed.
Lemma rmdir_related st s H L d : R2g st (dead s) (hdead H) L -> R2g st (dead (run_sprim s (SRmdir d))) (hdead H) L.
Proof. intros R. apply (R2g_rmdir st (dead s) (hdead H) L d); auto. Qed.

Lemma rename_okb_neq h seen d d' : op_okb h seen (ORename d d') = true -> d <> d'.
Proof. cbn [op_okb]. intros P. apply String.eqb_neq. destruct (String.eqb d d'); [discriminate P|reflexivity]. Qed.
Lemma rename_related h H L seen d d' s' :
  R2 h H L -> incl (keys (sst h)) seen -> op_okb h seen (ORename d d') = true ->
  In s' (scrash_states kname kpath h (ORename d d')) ->
  exists phi, R2g false (dead s') (hdead (H_of (h_next H) (map phi L))) (map phi L) /\ forall x, mrel d d' x (phi x).
Proof.
  intros R IS P IN. pose proof (rename_okb_neq _ _ _ _ P) as P1. apply andb_prop in P. destruct P as [_ P3].
  assert (RN : R2g false (dead (sst h)) (hdead (H_of (h_next H) L)) L) by (apply (R2g_relax true h H L); auto).
  (* nothing moved yet: the identity *)
  assert (ID : forall s0, R2g false (dead s0) (hdead (H_of (h_next H) L)) L ->
               exists phi, R2g false (dead s0) (hdead (H_of (h_next H) (map phi L))) (map phi L) /\ forall x, mrel d d' x (phi x)).
  { intros s0 R0. exists (fun x => x). rewrite map_id. split; [exact R0|]. left. reflexivity. }
  unfold scrash_states in IN. cbn [sprims] in IN. destruct (shas_dir (sst h) d) eqn:Dd.
  2:{ destruct IN as [IN|[]]. subst s'. apply ID, RN. }
  set (G := sglob kname (sst h) d PAll) in *. set (ks := map fst G).
  replace (map (fun e : skey * file => SRename (fst e) (rekey d' (fst e))) G) with (map (fun k => SRename k (rekey d' k)) ks) in IN
    by (unfold ks; rewrite map_map; reflexivity).
  set (s1 := run_sprim (sst h) (SMkdir d')) in *.
  assert (K1 : keys s1 = keys (sst h)) by apply keys_files, mkdir_files.
  pose proof (mkdir_related _ _ _ d' RN : R2g false (dead s1) _ L) as R1.
  assert (GK : forall k, In k ks -> (In k (keys s1) /\ k_dag k = d) /\ ~ In (rekey d' k) (keys s1)).
  { intros k Ik. apply in_map_iff in Ik. destruct Ik as [e [Ee Ie]]. apply (sglob_member kname R d e) in Ie. destruct Ie as [If Dg].
    subst k. rewrite K1. split; [split; [apply in_map, If|exact Dg]|apply (rename_fresh h seen d d' e IS P3 If Dg)]. }
  assert (NDG : NoDup ks) by apply (sglob_keys_nodup kname R d PAll).
  apply scrash_app_in in IN. destruct IN as [IN|IN].
  - destruct IN as [X|[X|[]]]; subst s'; apply ID; auto.
  - change (run_sprims (sst h) [SMkdir d']) with s1 in IN.
    apply scrash_app_in in IN. destruct IN as [IN|IN].
    + (* the store after the renames of a prefix of the keys *)
      destruct (scrash_untorn (fun k => SRename k (rekey d' k)) (fun _ => eq_refl) ks _ _ IN) as [n E]. subst s'. eexists.
      apply (renames_related false s1 (h_next H) L d d' (firstn n ks) R1 P1 (mkdir_dir_self _ _) (NoDup_firstn n ks NDG)).
      * intros k Ik. apply GK, (firstn_incl _ _ _ Ik).
      * intros k Ik. apply GK, (firstn_incl _ _ _ Ik).
    + (* after all renames, and after the rmdir *)
      destruct (renames_related false s1 (h_next H) L d d' ks R1 P1 (mkdir_dir_self _ _) NDG) as [R' F']; try (intros k Ik; apply GK, Ik).
      destruct IN as [X|[X|[]]]; subst s'; eexists; (split; [|exact F']); auto using rmdir_related.
Qed.

(* the exact characterisation: a kill inside Rename (one rename(2) per history file) leaves SOME of the runs of d already moved to d';
   ALL queries - under the old name, the new name and every other DAG - answer as that intermediate run map says: every run is found
   under exactly one of the two names, and latest / recent of each name list the runs that are currently there.
   Full before-or-after atomicity is false here (ProofsC07Ex.rename_not_atomic). *)
Theorem crash_rename_full h H L seen d d' s' :
  R2 h H L -> incl (keys (sst h)) seen -> op_okb h seen (ORename d d') = true ->
  hist_okb (sp_apply H (ORename d d')) = true ->
  In s' (scrash_states kname kpath h (ORename d d')) ->
  exists H', answers_as s' H' /\ hist_okb H' = true
    /\ exists l, Permutation l (h_runs H) /\ Forall2 (rrel d d') l (h_runs H').
Proof.
  intros R IS P O' IN.
  destruct (rename_related h H L seen d d' s' R IS P IN) as [phi [R' F']].
  pose proof (rename_okb_neq _ _ _ _ P) as P1.
  assert (FR : Forall2 (rrel d d') (map snd L) (h_runs (H_of (h_next H) (map phi L)))).
  { cbn [H_of h_runs]. rewrite map_map. apply Forall2_map_lr. intros x Ix.
    destruct (F' x) as [Rx|[Dx Rx]]; rewrite Rx; [left; reflexivity|]. right. split; [|reflexivity].
    rewrite <- Dx. symmetry. apply (frun_dag true _ _ (L_frun R x Ix)). }
  assert (OK' : hist_okb (H_of (h_next H) (map phi L)) = true).
  { apply hist_okb_iff, (hist_ok_pre _ d d'), (mixed_post_ok H _ d d' (map snd L)); auto using (r_snd R). apply hist_okb_iff, O'. }
  exists (H_of (h_next H) (map phi L)). split; [apply related_answers; auto; eexists; exact R'|]. split; auto.
  exists (map snd L). split; [apply (r_snd R)|exact FR].
Qed.

End K.
