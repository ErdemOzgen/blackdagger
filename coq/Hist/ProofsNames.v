(* The per-path string premises (names_okb, closedb) hold of many names: of every DAG base name of length <= 2 over an alphabet with
   letters, digits, space, dot, underscore, minus, colon and every glob metacharacter, of every name of length <= 3 over its hazardous
   part, and of every pair of distinct names of length <= 1 (names_premises_bounded; before 8ffc003 names with metacharacters failed
   them, F6b).  What depends only on the part of a file name behind the DAG's prefix holds for ALL names and is evaluated once
   (tails_okb); what looks at the DAG name holds whenever distinct DAGs have distinct slash-free directories (names_okb_univ), except
   that the stamp scan finds nothing in front of the file name (scanfree): swept per name.  The general statement is not proved. *)
From Coq Require Import List String Ascii Bool Arith ZArith Lia.
Import ListNotations.
From BD.Hist Require Import GoMatch Model SModel ProofsLib ProofsMatch ProofsString ProofsC06.
Open Scope string_scope.

Definition alphabet : list ascii := ["a";"b";"Z";"0";"2";" ";".";"_";"-";"[";"]";"*";"?";"\";":"]%char.
Definition hazards : list ascii := ["a";"2";".";"[";"*";"?";"\";":"]%char.
Fixpoint words_over (al : list ascii) (n : nat) : list string :=
  match n with
  | O => [""]
  | S k => let w := words_over al k in
           w ++ flat_map (fun s => map (fun c => String c s) al) (filter (fun s => Nat.eqb (String.length s) k) w)
  end.
Definition words := words_over alphabet.
Definition hwords := words_over hazards.
(* an injective stand-in for md5: the hex encoding of the path *)
Definition hexd (n : nat) : ascii := ascii_of_nat (if Nat.ltb n 10 then 48 + n else 87 + n).
Fixpoint hexs (s : string) : string :=
  match s with "" => "" | String c r => String (hexd (nat_of_ascii c / 16)) (String (hexd (nat_of_ascii c mod 16)) (hexs r)) end.
Definition dhx (d : string) : string := hexs d.
Definition dag_of (w : string) : string := "/x/" ++ w ++ ".yaml".
Definition locN := "/data/h".
Definition daysN := ["20240101"; "20240102"].
Definition runsN := [("20240101.10:00:00.100", "req-aaaa"); ("20240101.10:00:00.300", "r2")].

(* dropCompacted's name arithmetic looks at the last six bytes only *)
Lemma orig_of_app p t : 6 <= String.length t -> orig_of (p ++ t) = option_map (append p) (orig_of t).
Proof.
  intros Lt. unfold orig_of, has_suffix. rewrite length_app. cbn [String.length].
  replace (String.length p + String.length t - 6) with (String.length p + (String.length t - 6)) by lia.
  rewrite drop_app_ge, take_app_ge.
  replace (Nat.leb 6 (String.length p + String.length t)) with true by (symmetry; apply Nat.leb_le; lia).
  replace (Nat.leb 6 (String.length t)) with true by (symmetry; apply Nat.leb_le; lia).
  cbn [andb]. destruct (String.eqb _ "_c.dat"); cbn [option_map]; [rewrite sapp_assoc|]; reflexivity.
Qed.

(* the stamp regexp looks at 17 bytes *)
Lemma ts_at_app a b : 17 <= String.length a -> ts_at (a ++ b) = ts_at a.
Proof. intros H. do 17 (destruct a as [|? a]; [cbn [String.length] in H; lia|]). reflexivity. Qed.
Lemma find_ts_cons c r : find_ts (String c r) = match ts_match (String c r) with Some t => t | None => find_ts r end.
Proof. reflexivity. Qed.
Lemma ts_at_guard c r : ts_at (String c r) = true -> Ascii.eqb c "2" && Ascii.eqb (chr (String c r) 11) ":" = true.
Proof.
  unfold ts_at. destruct (Ascii.eqb c "2"), (all_digits (take 7 r)), (Nat.leb 17 (String.length (String c r))); try discriminate.
  intros H. rewrite !andb_true_iff in H. tauto.
Qed.
(* no suffix of p, continued by t17, begins like a stamp (the guard is looked at first: is_digit evaluates slowly) *)
Fixpoint scanfree (p t17 : string) : bool :=
  match p with
  | "" => true
  | String c p' => negb (Ascii.eqb c "2" && Ascii.eqb (chr (p ++ t17) 11) ":" && ts_at (p ++ t17)) && scanfree p' t17
  end.
Lemma find_ts_skip p t17 r : 17 <= String.length t17 -> scanfree p t17 = true -> find_ts (p ++ t17 ++ r) = find_ts (t17 ++ r).
Proof.
  intros L17. induction p as [|c p IH]; [reflexivity|]. cbn [scanfree]. intros S. apply andb_prop in S. destruct S as [S1 S2].
  assert (A : ts_at (String c p ++ t17) = false).
  { destruct (ts_at _) eqn:A; [|reflexivity]. apply (ts_at_guard c (p ++ t17)) in A.
    change (String c p ++ t17) with (String c (p ++ t17)) in S1. rewrite A in S1. discriminate S1. }
  cbn [append]. rewrite find_ts_cons. unfold ts_match.
  change (String c (p ++ t17 ++ r)) with (String c p ++ t17 ++ r). rewrite <- sapp_assoc, ts_at_app, A by (rewrite length_app; lia).
  apply IH, S2.
Qed.
Fixpoint lacks (c : ascii) (s : string) : bool :=
  match s with "" => true | String a r => negb (Ascii.eqb a c) && lacks c r end.
Lemma lacks_app c a b : lacks c (a ++ b) = lacks c a && lacks c b.
Proof. induction a as [|x a IH]; [reflexivity|]. cbn [append lacks]. rewrite IH, andb_assoc. reflexivity. Qed.
Lemma rindex_lacks c s : lacks c s = true -> forall i acc, rindex_from s c i acc = acc.
Proof.
  induction s as [|a s IH]; [reflexivity|]. cbn [lacks rindex_from]. intros H i acc. apply andb_prop in H. destruct H as [Ha Hs].
  apply negb_true_iff in Ha. rewrite Ha. apply IH, Hs.
Qed.
Lemma rindex_app c a b : forall i acc, rindex_from (a ++ b) c i acc = rindex_from b c (String.length a + i) (rindex_from a c i acc).
Proof. induction a as [|x a IH]; intros i acc; [reflexivity|]. cbn [append rindex_from String.length]. rewrite IH. f_equal. lia. Qed.
Lemma rindex_last c a e : lacks c e = true -> rindex_from (a ++ String c e) c 0 None = Some (String.length a).
Proof. intros H. rewrite rindex_app. cbn [rindex_from]. rewrite Ascii.eqb_refl, (rindex_lacks c e H), Nat.add_0_r. reflexivity. Qed.
Lemma ext_app a e : lacks "." e = true -> ext (a ++ String "." e) = String "." e.
Proof. intros H. unfold ext. rewrite (rindex_last _ a e H). apply drop_app. Qed.
Lemma trim_ext_app a e : lacks "." e = true -> trim_ext (a ++ String "." e) = a.
Proof.
  intros H. unfold trim_ext. rewrite (ext_app a e H), length_app, Nat.add_sub, <- (Nat.add_0_r (String.length a)), take_app_ge.
  apply app_empty_r.
Qed.
Lemma base_app p v : lacks "/" v = true -> base (p ++ String "/" v) = v.
Proof. intros H. unfold base. rewrite (rindex_last _ p v H), <- Nat.add_1_r. apply drop_app_ge. Qed.
Lemma first_dir_inj a : forall a' x x', lacks "/" a = true -> lacks "/" a' = true -> a ++ String "/" x = a' ++ String "/" x' -> a = a'.
Proof.
  induction a as [|c a IH]; intros [|c' a'] x x' H H' E; cbn [append lacks] in *; try reflexivity; injection E as Ec E; subst.
  - rewrite Ascii.eqb_refl in H'. discriminate.
  - rewrite Ascii.eqb_refl in H. discriminate.
  - apply andb_prop in H, H'. f_equal. apply (IH a' x x'); tauto.
Qed.
Lemma app_inj_len (a : string) : forall a' b b', String.length a = String.length a' -> a ++ b = a' ++ b' -> a = a'.
Proof.
  induction a as [|c a IH]; intros [|c' a'] b b' Ln E; cbn [append String.length] in *; try reflexivity; try discriminate.
  injection E as -> E. f_equal. apply (IH a' b b'); [lia | exact E].
Qed.

Lemma univ_inv D runs k : In k (univ D runs) -> exists d s r, In d D /\ In (s, r) runs /\
  (k = mkkey d s r false \/ k = mkkey d s r true \/ k = tmpk (mkkey d s r true)).
Proof.
  unfold univ. intros I. apply in_flat_map in I. destruct I as [d [Id I]]. apply in_flat_map in I. destruct I as [[s r] [Ir I]].
  exists d, s, r. destruct I as [<-|[<-|[<-|[]]]]; auto.
Qed.
Lemma in_univ D runs d s r : In d D -> In (s, r) runs ->
  In (mkkey d s r false) (univ D runs) /\ In (mkkey d s r true) (univ D runs) /\ In (tmpk (mkkey d s r true)) (univ D runs).
Proof.
  intros Id Ir. unfold univ.
  repeat split; apply in_flat_map; exists d; (split; [exact Id|]); apply in_flat_map; exists (s, r); (split; [exact Ir|]); simpl; auto.
Qed.
Lemma univ_dag D runs k : In k (univ D runs) -> In (k_dag k) D.
Proof. intros I. apply univ_inv in I. destruct I as [d [s [r [Id [_ [->|[->| ->]]]]]]]; exact Id. Qed.
Lemma univ_rekey D D' runs k d' : In k (univ D runs) -> In d' D' -> In (rekey d' k) (univ D' runs).
Proof.
  intros I Id'. apply univ_inv in I. destruct I as [d [s [r [_ [Ir E]]]]].
  destruct (in_univ D' runs d' s r Id' Ir) as [U1 [U2 U3]]. destruct E as [->|[->| ->]]; assumption.
Qed.
(* "" is a stand-in DAG: the part of a file name behind the DAG's prefix does not depend on the DAG, and tails_okb evaluates what
   that part decides once, on the keys of univ [""] runs *)
Lemma univ_rekey0 D runs k : In k (univ D runs) -> In (rekey "" k) (univ [""] runs).
Proof. intros I. apply (univ_rekey D); [exact I | left; reflexivity]. Qed.
Lemma closedb_univ D runs : closedb D (univ D runs) = true.
Proof.
  unfold closedb. apply forallb_forall. intros k I.
  assert (Tw : In (twin k) (univ D runs) /\ In (tmpk (twin k)) (univ D runs)).
  { apply univ_inv in I. destruct I as [d [s [r [Id [Ir E]]]]]. destruct (in_univ D runs d s r Id Ir) as [_ U].
    destruct E as [->|[->| ->]]; exact U. }
  destruct Tw as [U1 U2]. rewrite (proj2 (existsb_skey _ _) U1), (proj2 (existsb_skey _ _) U2).
  apply forallb_forall. intros d' Id'. apply existsb_skey, (univ_rekey D); assumption.
Qed.

Lemma skey_eqb_dag a b : k_dag a <> k_dag b -> skey_eqb a b = false.
Proof. intros N. unfold skey_eqb. apply String.eqb_neq in N. rewrite N. reflexivity. Qed.
Lemma skey_eqb_rekey d a b : k_dag a = k_dag b -> skey_eqb a b = skey_eqb (rekey d a) (rekey d b).
Proof. intros E. unfold skey_eqb. cbn [rekey k_dag k_stamp k_r8 k_c k_tmp]. rewrite E, !String.eqb_refl. reflexivity. Qed.

Definition tailname (k : skey) : string :=
  "." ++ k_stamp k ++ "." ++ k_r8 k ++ (if k_c k then "_c.dat" else ".dat") ++ (if k_tmp k then ".tmp" else "").
Lemma rname_tail k : rname k = prefix_of (k_dag k) ++ tailname k.
Proof. unfold rname, fname, tailname. rewrite !sapp_assoc. reflexivity. Qed.
Lemma tail_len k : 6 <= String.length (tailname k).
Proof. unfold tailname. rewrite !length_app. destruct (k_c k); cbn [String.length]; lia. Qed.
(* the name Compact computes for the twin: .dat is the file name's suffix, whatever stands in front *)
Lemma twin_name k : k_c k = false -> k_tmp k = false -> trim_ext (rname k) ++ "_c.dat" = rname (twin k).
Proof.
  intros C T. unfold rname, fname, twin, mkkey. cbn [k_dag k_stamp k_r8 k_c k_tmp]. rewrite C, T, !app_empty_r.
  rewrite <- !(sapp_assoc _ _ ".dat"), (trim_ext_app _ "dat" eq_refl), !sapp_assoc. reflexivity.
Qed.

(* the patterns of a key's own DAG against its file name: the escaped prefix cancels (go_match_esc) *)
Definition plain_day (day : string) : bool := forallb plainb (list_ascii_of_string ("." ++ day)).
Definition own_tailb (days : list string) (k : skey) : bool :=
  obool_eqb (go_match "*.dat" (tailname k)) (in_patk PAll k)
  && obool_eqb (go_match ".*.*.dat" (tailname k)) (in_patk (PLatest None) k)
  && forallb (fun day => obool_eqb (go_match ("." ++ day ++ "*.*.dat") (tailname k)) (in_patk (PLatest (Some day)) k)) days.
Lemma own_tail days k : forallb plain_day days = true ->
  obool_eqb (go_match (pat_all (k_dag k)) (rname k)) (in_patk PAll k)
  && obool_eqb (go_match (pat_latest (k_dag k) None) (rname k)) (in_patk (PLatest None) k)
  && forallb (fun day => obool_eqb (go_match (pat_latest (k_dag k) (Some day)) (rname k)) (in_patk (PLatest (Some day)) k)) days
  = own_tailb days k.
Proof.
  intros Pd. unfold own_tailb, pat_all, pat_latest. rewrite rname_tail.
  rewrite (go_match_esc _ "" ".dat"), (go_match_esc _ "." ".*.dat") by reflexivity. f_equal.
  apply forallb_ext_in. intros day Id. rewrite forallb_forall in Pd. specialize (Pd day Id).
  change ("." ++ day ++ "*.*.dat") with ("." ++ (day ++ "*.*.dat")).
  rewrite <- (sapp_assoc "." day "*.*.dat"). rewrite (go_match_esc _ ("." ++ day) ".*.dat") by exact Pd. reflexivity.
Qed.
Definition tinj (k k' : skey) : bool := implb (String.eqb (tailname k) (tailname k')) (skey_eqb (rekey "" k) (rekey "" k')).
Lemma inj_tail k k' : tinj k k' = true ->
  implb (String.eqb (rname k) (rname k') && String.eqb (k_dag k) (k_dag k')) (skey_eqb k k') = true.
Proof.
  unfold tinj. intros T. destruct (String.eqb (k_dag k) (k_dag k')) eqn:E; [|rewrite andb_false_r; reflexivity].
  apply String.eqb_eq in E. rewrite andb_true_r, !rname_tail, E, eqb_app_head, (skey_eqb_rekey "" k k' E). exact T.
Qed.
Definition orig_tailb (K0 : list skey) (m : skey) : bool :=
  match orig_of (tailname m) with
  | Some o => k_c m && forallb (fun k => Bool.eqb (String.eqb o (tailname k)) (negb (k_c k) && negb (k_tmp k) && skey_eqb (twin k) m)) K0
  | None => negb (k_c m)
  end.
Definition tails_okb (days : list string) (runs : list (string * string)) (t17 : string) : bool :=
  let K0 := univ [""] runs in
  Nat.leb 17 (String.length t17)
  && forallb (fun k => own_tailb days k && forallb (tinj k) K0 && (k_tmp k || orig_tailb K0 k)
                       && (k_c k || k_tmp k || String.ltb (tailname k) (tailname (twin k)))
                       && prefixb t17 (tailname k) && (k_tmp k || String.eqb (find_ts (tailname k)) (k_stamp k))) K0.

Section Comp.
Variables (loc : string) (dh : string -> string).
Hypothesis loc_lit : lit (L loc).
Definition pfx (d : string) : string := loc ++ "/" ++ rdir dh d ++ "/" ++ prefix_of d.
Lemma rpath_tail k : rpath loc dh k = pfx (k_dag k) ++ tailname k.
Proof. unfold rpath, fpath, pfx. rewrite rname_tail, !sapp_assoc. reflexivity. Qed.

(* well-formed whatever the DAG is called: the first chunk consists of plain and escaped characters *)
Lemma pat_ok_esc d c2 q : forallb plainb (L c2) = true -> pat_ok loc dh d (esc_glob (prefix_of d) ++ c2 ++ String "*" q) = true.
Proof.
  intros Pc. unfold pat_ok, rdirpat, dirpat.
  replace (loc ++ "/" ++ esc_glob (dirname dh d) ++ "/" ++ esc_glob (prefix_of d) ++ c2 ++ String "*" q)
    with ((loc ++ "/" ++ esc_glob (dirname dh d) ++ "/" ++ esc_glob (prefix_of d) ++ c2) ++ String "*" q)
    by (rewrite !sapp_assoc; reflexivity).
  rewrite go_match_empty; [reflexivity| |].
  - destruct loc; discriminate.
  - rewrite !L_app. repeat apply lit_app; auto using lit_esc, lit_plain.
Qed.
(* the directory pattern is the escaped name *)
Lemma dirsel_ok D d : (forall d', In d' D -> rdir dh d = rdir dh d' -> d = d') -> dirsel_okb loc dh D d = true.
Proof.
  intros Inj. unfold dirsel_okb, rdirpat, dirpat. fold (rdir dh d). destruct (has_meta _) eqn:M.
  - assert (Ll : lit (L (loc ++ "/" ++ esc_glob (rdir dh d)))) by (rewrite !L_app; auto using lit_app, lit_esc, lit_plain).
    destruct Ll as [ts [O E]]. rewrite (go_match_lit ts _ _ O (eq_sym E)). apply forallb_forall. intros d' Id'.
    rewrite go_match_esc_eq. cbn [obool_eqb]. destruct (String.eqb_spec d d') as [<-|N].
    + rewrite String.eqb_refl. reflexivity.
    + destruct (String.eqb_spec (rdir dh d) (rdir dh d')) as [Er|]; [destruct (N (Inj d' Id' Er)) | reflexivity].
  - rewrite (has_meta_esc _ M). apply String.eqb_refl.
Qed.
Lemma dag_ok_univ D days d : forallb plain_day days = true -> (forall d', In d' D -> rdir dh d = rdir dh d' -> d = d') ->
  add_yaml d = d -> dag_okb loc dh D days d = true.
Proof.
  intros Pd Inj Y. unfold dag_okb, pat_all, pat_latest.
  pose proof (pat_ok_esc d "" ".dat" eq_refl) as A. pose proof (pat_ok_esc d "." ".*.dat" eq_refl) as B. cbn [append] in A, B.
  rewrite (dirsel_ok D d Inj), A, B, Y, String.eqb_refl, andb_true_r. apply andb_true_intro. split; apply forallb_forall.
  - intros day Id. rewrite forallb_forall in Pd. specialize (Pd day Id).
    change ("." ++ day ++ "*.*.dat") with ("." ++ (day ++ "*.*.dat")). rewrite <- (sapp_assoc "." day "*.*.dat").
    apply (pat_ok_esc d ("." ++ day) ".*.dat"), Pd.
  - intros d' Id'. destruct (String.eqb_spec (rdir dh d) (rdir dh d')) as [Er|]; [|reflexivity].
    rewrite (Inj d' Id' Er). apply String.eqb_refl.
Qed.

(* dropCompacted: within one DAG by tails_okb; a file of another DAG lies in another directory *)
Lemma orig_sound D runs m : In m (univ D runs) -> orig_tailb (univ [""] runs) (rekey "" m) = true ->
  (forall d, In d D -> lacks "/" (rdir dh d) = true) -> (forall d d', In d D -> In d' D -> rdir dh d = rdir dh d' -> d = d') ->
  orig_okb loc dh (univ D runs) m = true.
Proof.
  intros Im T Sl Inj. unfold orig_okb. rewrite rpath_tail, (orig_of_app _ _ (tail_len m)).
  unfold orig_tailb in T. change (tailname (rekey "" m)) with (tailname m) in T. change (k_c (rekey "" m)) with (k_c m) in T.
  destruct (orig_of (tailname m)) as [o|] eqn:O; cbn [option_map]; [|exact T].
  apply andb_prop in T. destruct T as [Tc Tf]. rewrite Tc. apply forallb_forall. intros k Ik.
  pose proof (univ_dag D runs k Ik) as Idk. pose proof (univ_dag D runs m Im) as Idm. rewrite rpath_tail.
  destruct (string_dec (k_dag k) (k_dag m)) as [E|N].
  - rewrite E, eqb_app_head. rewrite forallb_forall in Tf. specialize (Tf _ (univ_rekey0 D runs k Ik)).
    rewrite (skey_eqb_rekey "" (twin k) m E). exact Tf.
  - rewrite (skey_eqb_dag (twin k) m N), !andb_false_r. apply Bool.eqb_true_iff, String.eqb_neq. intros Ep.
    unfold pfx in Ep. rewrite !sapp_assoc in Ep. apply sapp_inv_head in Ep. injection Ep as Ep.
    apply first_dir_inj in Ep; [|apply Sl; assumption ..]. apply N. symmetry. apply Inj; assumption.
Qed.

(* t17: the first 17 bytes that all DAG-independent name parts share - the stamp scan of the bytes in front of them (pfx d)
   cannot depend on what follows *)
Lemma names_okb_univ D days runs t17 : forallb plain_day days = true -> tails_okb days runs t17 = true ->
  (forall d, In d D -> add_yaml d = d /\ lacks "/" (rdir dh d) = true /\ scanfree (pfx d) t17 = true) ->
  (forall d d', In d D -> In d' D -> rdir dh d = rdir dh d' -> d = d') ->
  names_okb loc dh D days (univ D runs) = true.
Proof.
  intros Pd T Hd Inj. unfold names_okb. apply andb_true_intro. split; apply forallb_forall.
  - intros d Id. apply dag_ok_univ; [exact Pd | intros d'; apply Inj, Id | apply Hd, Id].
  - intros k I. unfold tails_okb in T. apply andb_prop in T. destruct T as [L17 T]. apply Nat.leb_le in L17.
    rewrite forallb_forall in T. specialize (T _ (univ_rekey0 D runs k I)).
    rewrite !andb_true_iff in T. destruct T as [[[[[To Ti] Tg] Tl] Tp] Tf].
    assert (Ht : k_c k || k_tmp k || String.eqb (trim_ext (rname k) ++ "_c.dat") (rname (twin k)) = true).
    { destruct (k_c k) eqn:C, (k_tmp k) eqn:Tm; try reflexivity. apply String.eqb_eq, twin_name; assumption. }
    assert (Hs : k_tmp k || String.eqb (find_ts (rpath loc dh k)) (k_stamp k) = true).
    { destruct (Hd _ (univ_dag D runs k I)) as [_ [_ Sc]]. rewrite rpath_tail.
      change (tailname (rekey "" k)) with (tailname k) in Tp, Tf. rewrite (prefixb_inv _ _ Tp) in Tf |- *.
      rewrite (find_ts_skip _ _ _ L17 Sc). exact Tf. }
    assert (Ho : k_tmp k || orig_okb loc dh (univ D runs) k = true).
    { change (k_tmp (rekey "" k)) with (k_tmp k) in Tg. destruct (k_tmp k); [reflexivity|]. cbn [orb] in *.
      apply orig_sound; auto. intros d Id. apply Hd, Id. }
    assert (Hl : k_c k || k_tmp k || String.ltb (rpath loc dh k) (rpath loc dh (twin k)) = true).
    { rewrite !rpath_tail. change (k_dag (twin k)) with (k_dag k). rewrite ltb_app_head. exact Tl. }
    unfold key_okb. rewrite <- !andb_assoc. rewrite (andb_assoc (obool_eqb _ _)), (andb_assoc (obool_eqb _ _ && _)), (own_tail days k Pd).
    change (own_tailb days k) with (own_tailb days (rekey "" k)). rewrite To, Hs, Ht, Ho, Hl, !andb_true_r.
    assert (E : existsb (String.eqb (k_dag k)) D = true).
    { apply existsb_exists. exists (k_dag k). split; [apply (univ_dag D runs), I | apply String.eqb_refl]. }
    rewrite E. apply forallb_forall. intros k' I'. apply inj_tail. rewrite forallb_forall in Ti.
    apply (Ti _ (univ_rekey0 D runs k' I')).
Qed.
End Comp.

Lemma loc_lit : lit (L locN).
Proof. apply lit_plain. reflexivity. Qed.
Lemma days_plain : forallb plain_day daysN = true.
Proof. reflexivity. Qed.
Definition t17N := ".20240101.10:00:0".
Lemma tails_ok : tails_okb daysN runsN t17N = true.
Proof. vm_compute. reflexivity. Qed.

Lemma dag_prefix w : lacks "/" w = true -> prefix_of (dag_of w) = w /\ add_yaml (dag_of w) = dag_of w.
Proof.
  intros H. assert (B : base (dag_of w) = w ++ ".yaml") by (apply (base_app "/x"); rewrite lacks_app, H; reflexivity).
  unfold prefix_of, add_yaml. rewrite B, (ext_app w "yaml" eq_refl). split; [apply (trim_ext_app w "yaml" eq_refl) | reflexivity].
Qed.
Lemma hexs_length s : String.length (hexs s) = 2 * String.length s.
Proof. induction s as [|c s IH]; [reflexivity|]. cbn [hexs String.length]. rewrite IH. lia. Qed.
(* the name in front of the hash determines the length of the whole *)
Lemma dag_rdir_inj w w' : lacks "/" w = true -> lacks "/" w' = true -> rdir dhx (dag_of w) = rdir dhx (dag_of w') -> w = w'.
Proof.
  intros H H'. unfold rdir, dirname. rewrite (proj1 (dag_prefix w H)), (proj1 (dag_prefix w' H')). intros E.
  apply (app_inj_len _ _ _ _) in E; [exact E|]. apply (f_equal String.length) in E. unfold dhx, dag_of in E.
  rewrite !length_app, !hexs_length, !length_app in E. lia.
Qed.

(* hexs goes through nat_of_ascii, division and ascii_of_nat, which evaluate slowly; the sweeps run on hexb, the same function read off
   the bits (hexs_hexb).  nib: the hex digit of four bits, least significant first *)
Definition nib (b0 b1 b2 b3 : bool) : ascii :=
  match b3, b2, b1, b0 with
  | false, false, false, false => "0" | false, false, false, true => "1" | false, false, true, false => "2" | false, false, true, true => "3"
  | false, true, false, false => "4" | false, true, false, true => "5" | false, true, true, false => "6" | false, true, true, true => "7"
  | true, false, false, false => "8" | true, false, false, true => "9" | true, false, true, false => "a" | true, false, true, true => "b"
  | true, true, false, false => "c" | true, true, false, true => "d" | true, true, true, false => "e" | true, true, true, true => "f"
  end%char.
Fixpoint hexb (s : string) : string :=
  match s with
  | "" => ""
  | String (Ascii b0 b1 b2 b3 b4 b5 b6 b7) r => String (nib b4 b5 b6 b7) (String (nib b0 b1 b2 b3) (hexb r))
  end.
Lemma hexs_hexb s : hexs s = hexb s.
Proof.
  induction s as [|c s IH]; [reflexivity|]. cbn [hexs hexb]. rewrite IH.
  destruct c as [b0 b1 b2 b3 b4 b5 b6 b7]. destruct b0, b1, b2, b3, b4, b5, b6, b7; reflexivity.
Qed.

Definition self1 (w : string) : bool :=
  let h := hexb (dag_of w) in
  lacks "/" w && lacks "/" h && scanfree (locN ++ "/" ++ (w ++ "-" ++ h) ++ "/" ++ w) t17N.
Definition self_ok (w : string) : Prop :=
  lacks "/" w = true /\ lacks "/" (rdir dhx (dag_of w)) = true /\ scanfree (pfx locN dhx (dag_of w)) t17N = true.
Lemma self1_sound w : self1 w = true -> self_ok w.
Proof.
  unfold self1, self_ok, pfx, rdir, dirname, dhx. cbv zeta. intros H. rewrite !andb_true_iff in H. destruct H as [[H1 H2] H3].
  rewrite (proj1 (dag_prefix w H1)), hexs_hexb, !lacks_app, H1, H2. auto.
Qed.

Lemma names_ok_words2 : forallb self1 (words 2) = true.
Proof. vm_compute. reflexivity. Qed.
Lemma names_ok_hwords3 : forallb self1 (hwords 3) = true.
Proof. vm_compute. reflexivity. Qed.
Lemma self_words w : In w (words 2) \/ In w (hwords 3) -> self_ok w.
Proof.
  pose proof names_ok_words2 as W2. pose proof names_ok_hwords3 as H3. rewrite forallb_forall in W2, H3.
  intros [I|I]; apply self1_sound; auto.
Qed.
Lemma names_ok_dags ws : (forall w, In w ws -> self_ok w) ->
  names_okb locN dhx (map dag_of ws) daysN (univ (map dag_of ws) runsN) = true.
Proof.
  intros S. apply (names_okb_univ locN dhx loc_lit _ daysN runsN t17N days_plain tails_ok).
  - intros d Id. apply in_map_iff in Id. destruct Id as [w [<- Iw]]. destruct (S w Iw) as [H [Sl Sc]].
    split; [apply (dag_prefix w H) | auto].
  - intros d d' Id Id' E. apply in_map_iff in Id, Id'. destruct Id as [w [<- Iw]]. destruct Id' as [w' [<- Iw']].
    f_equal. apply dag_rdir_inj; [apply (S w Iw) | apply (S w' Iw') | exact E].
Qed.

Theorem names_premises_bounded :
  List.length (words 2) = 241 /\ List.length (hwords 3) = 585
  /\ (forall w, In w (words 2) \/ In w (hwords 3) ->
        names_okb locN dhx [dag_of w] daysN (univ [dag_of w] runsN) = true /\ closedb [dag_of w] (univ [dag_of w] runsN) = true)
  /\ (forall w1 w2, In w1 (words 1) -> In w2 (words 1) -> w1 <> w2 ->
        names_okb locN dhx [dag_of w1; dag_of w2] daysN (univ [dag_of w1; dag_of w2] runsN) = true).
Proof.
  split; [vm_compute; reflexivity|]. split; [vm_compute; reflexivity|]. split.
  - intros w I. split; [|apply closedb_univ]. apply (names_ok_dags [w]). intros w' [<-|[]]. apply self_words, I.
  - intros w1 w2 I1 I2 _. apply (names_ok_dags [w1; w2]).
    (* words 2 begins with words 1 *)
    intros w [<-|[<-|[]]]; apply self_words; left; apply in_or_app; left; assumption.
Qed.
