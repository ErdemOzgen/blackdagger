(* Coherence of the status cache (filecache.LoadLatest) with the store, at level L1.  Invariant cache_ok c s seen: every cached
   entry belongs to a path that has existed (seen), its recorded size is at most the present size of the file and, when the sizes
   agree, the cached status IS what the file parses to.  Every query of the caching process and every operation of any process
   preserves it, because files only grow or disappear and a path is never re-created (prims_ok: created / renamed-to keys are new,
   appended chunks are non-empty).  Consequence (cache_ok_sound + ProofsRefine.sload_latest_sound): LoadLatest answers exactly
   ParseFile in every reachable state - the mtime test is never needed. *)
From Coq Require Import List String Ascii Bool Arith ZArith Lia Permutation.
Import ListNotations.
From BD.Hist Require Import Model SModel Spec ProofsLib ProofsStore ProofsRefine.
Open Scope string_scope.
Open Scope list_scope.

Definition cache_ok (c : scache) (s : sfs) (seen : list skey) : Prop :=
  forall k e, scache_get c k = Some e ->
    In k seen /\ forall f, sget s k = Some f -> (c_size e <= fsize f)%Z /\ (c_size e = fsize f -> parse f = Some (c_data e)).

Lemma cache_ok_sound c s seen : cache_ok c s seen -> cache_sound c s.
Proof. intros C k e f G S E. destruct (C k e G) as [_ C2]. destruct (C2 f S) as [_ C3]. auto. Qed.
Lemma cache_ok_nil s seen : cache_ok [] s seen.
Proof. intros k e G. discriminate. Qed.

Definition fle (f f' : file) : Prop := (fsize f < fsize f')%Z \/ (fsize f = fsize f' /\ parse f = parse f').
Definition grows (s s' : sfs) (seen : list skey) : Prop :=
  forall k, In k seen -> forall f', sget s' k = Some f' -> exists f, sget s k = Some f /\ fle f f'.
Lemma fle_refl f : fle f f.  Proof. right. auto. Qed.
Lemma fle_trans a b c : fle a b -> fle b c -> fle a c.
Proof. unfold fle. intros [H1|[H1 P1]] [H2|[H2 P2]]; [left|left|left|right]; try lia. split; congruence. Qed.
Lemma grows_refl s seen : grows s s seen.
Proof. intros k _ f G. exists f. split; auto. apply fle_refl. Qed.
Lemma grows_trans s1 s2 s3 seen : grows s1 s2 seen -> grows s2 s3 seen -> grows s1 s3 seen.
Proof.
  intros G1 G2 k I f3 S3. destruct (G2 k I f3 S3) as [f2 [S2 L2]]. destruct (G1 k I f2 S2) as [f1 [S1 L1]].
  exists f1. split; auto. eapply fle_trans; eauto.
Qed.

Lemma cache_ok_grows c s s' seen seen' : cache_ok c s seen -> grows s s' seen -> incl seen seen' -> cache_ok c s' seen'.
Proof.
  intros C G I k e Ge. destruct (C k e Ge) as [Ik C2]. split; auto. intros f' S'.
  destruct (G k Ik f' S') as [f [S Lf]]. destruct (C2 f S) as [C3 C4]. destruct Lf as [Lf|[Lf Pf]]; split; try lia.
  intros E. rewrite <- Pf. apply C4. lia.
Qed.

(* an append of possibly empty chunks (the compaction copying a parsed status) is harmless if it goes to a key that has never been
   seen: no cache holds an entry for it *)
Definition prim_ok (seen : list skey) (s : sfs) (p : sprim) : Prop :=
  match p with
  | SCreate k _ => In k (keys s) \/ ~ In k seen
  | SAppend k c _ => (0 < csize c)%Z \/ ~ In k seen
  | SRename k k' => ~ In k' seen /\ k <> k'
  | _ => True
  end.
Fixpoint prims_ok (seen : list skey) (s : sfs) (ps : list sprim) : Prop :=
  match ps with [] => True | p :: r => prim_ok seen s p /\ prims_ok seen (run_sprim s p) r end.

Lemma grows_prim seen s p : prim_ok seen s p -> grows s (run_sprim s p) seen.
Proof.
  intros P k0 I0 f' S'.
  assert (Same : sget s k0 = Some f' -> exists f, sget s k0 = Some f /\ fle f f') by (intros E; exists f'; split; auto using fle_refl).
  destruct p; cbn [prim_ok] in P.
  - apply Same. cbn [run_sprim] in S'. destruct (shas_dir s d); exact S'.
  - rewrite sget_create in S'. destruct (sget s k0); [auto|]. exfalso.
    destruct (skey_eqb_spec k0 k) as [->|]; [|discriminate]. destruct (shas s k) eqn:H; [discriminate|].
    apply shas_false in H. tauto.
  - cbn [run_sprim] in S'. rewrite (sget_upd s k (fun f => append_chunk f c now)) in S'. destruct (skey_eqb_spec k0 k) as [->|]; [|auto].
    destruct (sget s k) as [f|]; [|discriminate]. inversion S'; subst. exists f. split; auto. left. rewrite fsize_append.
    destruct P as [P|P]; [lia|contradiction].
  - rewrite sget_unlink in S'. destruct (skey_eqb k0 k); [discriminate|auto].
  - destruct P as [P1 P2]. destruct (shas s k) eqn:H; [|cbn [run_sprim] in S'; rewrite H in S'; auto].
    rewrite sget_rename in S' by (auto; intro; subst; contradiction). destruct (skey_eqb k0 k); [discriminate|auto].
  - apply Same. cbn [run_sprim] in S'. destruct (sdir_empty s d); exact S'.
  - cbn [run_sprim] in S'. rewrite (sget_upd s k (set_mt t)) in S'.
    destruct (skey_eqb_spec k0 k) as [->|]; [|auto].
    destruct (sget s k) as [f|]; [|discriminate]. inversion S'; subst. exists f. split; auto. right. split; reflexivity.
Qed.
Lemma grows_prims seen ps : forall s, prims_ok seen s ps -> grows s (run_sprims s ps) seen.
Proof.
  induction ps as [|p ps IH]; intros s P; simpl in *. { apply grows_refl. }
  destruct P as [P1 P2]. eapply grows_trans; [apply grows_prim; eauto | apply IH; auto].
Qed.

Lemma cache_ok_load c s seen k : cache_ok c s seen -> incl (keys s) seen -> cache_ok (fst (sload_latest c s k)) s seen.
Proof.
  intros C IS. unfold sload_latest. destruct (sget s k) as [f|] eqn:G; simpl; auto.
  assert (PUT : forall p, parse f = Some p -> cache_ok (scache_put c k {| c_data := p; c_size := fsize f; c_mt := mtsec f |}) s seen).
  { intros p Pp k' e Ge. rewrite scache_get_put in Ge. destruct (skey_eqb_spec k' k) as [->|]; [|apply C; auto].
    inversion Ge; subst. simpl. split.
    - apply IS. apply sget_in in G. apply (in_map fst _ _ G).
    - intros f' G'. rewrite G in G'. inversion G'; subst. split; [lia|auto]. }
  destruct (scache_get c k) as [e|].
  - destruct ((c_mt e <? mtsec f)%Z || negb (c_size e =? fsize f)%Z)%bool; simpl; auto. destruct (parse f) eqn:Pf; simpl; auto.
  - destruct (parse f) eqn:Pf; simpl; auto.
Qed.
Lemma cache_ok_load_first s seen l : incl (keys s) seen -> forall c, cache_ok c s seen -> cache_ok (fst (sload_first c s l)) s seen.
Proof. intros IS. apply (sload_first_inv (fun c => cache_ok c s seen)). intros c e _ C. apply cache_ok_load; auto. Qed.
Lemma cache_ok_load_upto s seen l : incl (keys s) seen -> forall n c, cache_ok c s seen -> cache_ok (fst (sload_upto c s l n)) s seen.
Proof. intros IS. apply (sload_upto_inv (fun c => cache_ok c s seen)). intros c e _ C. apply cache_ok_load; auto. Qed.
Lemma cache_ok_del c s seen k : cache_ok c s seen -> cache_ok (scache_del c k) s seen.
Proof.
  intros C k' e Ge. rewrite scache_get_del in Ge. destruct (skey_eqb k' k); [discriminate|]. apply C; auto.
Qed.

Section Q.
Variables kname kpath : skey -> string.
Lemma cache_ok_latest c s seen d day : cache_ok c s seen -> incl (keys s) seen -> cache_ok (fst (sq_latest kname c s d day)) s seen.
Proof.
  intros C IS. unfold sq_latest, slatest_of. destruct (sglob kname s d (PLatest day)); simpl; auto. apply cache_ok_load_first; auto.
Qed.
Lemma cache_ok_recent c s seen d n : cache_ok c s seen -> incl (keys s) seen -> cache_ok (fst (sq_recent kname c s d n)) s seen.
Proof.
  intros C IS. unfold sq_recent, srecent_of. destruct (sglob kname s d PAll); simpl; auto. apply cache_ok_load_upto; auto.
Qed.

Lemma prims_ok_appends seen k now cs : Forall (fun c => (0 < csize c)%Z \/ ~ In k seen) cs -> forall s,
  prims_ok seen s (map (fun c => SAppend k c now) cs).
Proof. induction 1; intros s; simpl; auto. Qed.
Lemma prims_ok_status seen k now p : (0 <? p_size p)%Z = true -> forall s, prims_ok seen s (map (fun c => SAppend k c now) (chunks_of p)).
Proof. intros P. apply Z.ltb_lt in P. apply prims_ok_appends. unfold chunks_of. destruct (p_size p <? 4096)%Z; repeat constructor; simpl; lia. Qed.
Lemma prims_ok_app seen a : forall s b, prims_ok seen s a -> prims_ok seen (run_sprims s a) b -> prims_ok seen s (a ++ b).
Proof. induction a as [|p a IH]; intros s b Pa Pb; simpl in *; auto. destruct Pa. split; auto. Qed.

Lemma prims_ok_sopen seen s k now rest : (In k (keys s) \/ ~ In k seen) -> (forall s', prims_ok seen s' rest) ->
  prims_ok seen s (sopen s k now ++ rest).
Proof.
  intros Hk Hr. unfold sopen. cbn [app prims_ok]. split; [exact Logic.I|]. split.
  { cbn [prim_ok]. destruct Hk as [Hk|Hk]; auto. left. cbn [run_sprim]. destruct (shas_dir s (k_dag k)); auto. }
  destruct (sget s k) as [f|]; [|apply Hr]. destruct (ftail f); cbn [app prims_ok]; try apply Hr; (split; [|apply Hr]); left; reflexivity.
Qed.

Lemma op_prims_ok h seen o : op_okb h seen o = true ->
  prims_ok seen (sst h) (sprims kname kpath o h).
Proof.
  intros O. destruct o; simpl in *.
  - (* open *) apply andb_prop in O. destruct O as [O1 _]. apply negb_true_iff in O1. apply memk_false in O1.
    pose proof (prims_ok_sopen seen (sst h) (mkkey d stamp (trunc8 req) false) now [] (or_intror O1) (fun _ => Logic.I)) as X.
    rewrite app_nil_r in X. exact X.
  - (* write *) destruct (swr h) as [w|]; simpl; auto. destruct (sw_fd w) as [k|]; simpl; auto. apply prims_ok_status, O.
  - (* close *) destruct (swr h) as [w|]; simpl; auto. destruct (sget (sst h) (sw_key w)); simpl; auto. destruct (parse f); simpl; auto.
    apply andb_prop in O. destruct O as [O O2]. apply negb_true_iff in O, O2. apply memk_false in O, O2.
    (* unlink and mkdir ask nothing; the temporary copy and, below, the twin are new keys *)
    split; [exact Logic.I|]. split; [exact Logic.I|]. split; [right; exact O2|].
    apply prims_ok_app. { apply prims_ok_appends. apply Forall_forall. intros c _. right. exact O2. }
    simpl. split; [|auto]. split; [exact O|]. apply tmpk_neq. reflexivity.
  - (* update *) destruct (sq_find kname kpath (sst h) d req) as [|k p] eqn:Q; [simpl; auto|].
    assert (Ik : In k (keys (sst h))).
    { unfold sq_find in Q. apply sfind_in_inv in Q. destruct Q as [e [I [E _]]]. apply sglob_iff in I. destruct I as [_ [I _]].
      subst k. unfold keys. apply in_map. auto. }
    apply (prims_ok_sopen seen (sst h) k now); auto. intros s'. apply prims_ok_status, O.
  - (* rename *) apply andb_prop in O. destruct O as [O O3]. apply andb_prop in O. destruct O as [O1 O2].
    apply negb_true_iff in O1. apply String.eqb_neq in O1.
    destruct (shas_dir (sst h) d); simpl; auto. split; auto.
    apply prims_ok_app; [|simpl; auto].
    assert (G : forall l s, (forall e, In e l -> In e (sfiles (sst h)) /\ k_dag (fst e) = d) ->
                prims_ok seen s (map (fun e : sent => SRename (fst e) (rekey d' (fst e))) l)).
    { induction l as [|e l IHl]; intros s Hl; simpl; auto. split; [|apply IHl; intros; apply Hl; simpl; auto].
      destruct (Hl e) as [Ie De]; simpl; auto. split.
      - rewrite forallb_forall in O3. specialize (O3 e Ie). rewrite De, String.eqb_refl in O3.
        apply negb_true_iff in O3. apply memk_false in O3. auto.
      - intro X. apply O1. rewrite <- De. rewrite X. reflexivity. }
    apply G. intros e Ie. apply sglob_iff in Ie. tauto.
  - (* retention *) assert (G : forall l s, prims_ok seen s (map (fun e : sent => SUnlink (fst e)) l)).
    { induction l; intros s; simpl; auto. }
    apply G.
  - (* touch *) auto.
Qed.

Lemma sst_sapply h o : sst (sapply kname kpath h o) = run_sprims (sst h) (sprims kname kpath o h).
Proof.
  unfold sapply. destruct o; cbn [sprims]; try reflexivity.
  - destruct (swr h); reflexivity.
  - destruct (sq_find kname kpath (sst h) d req); reflexivity.
Qed.
Theorem cache_ok_apply h seen o c : cache_ok c (sst h) seen -> op_okb h seen o = true ->
  cache_ok c (sst (sapply kname kpath h o)) (seen ++ keys (sst (sapply kname kpath h o))).
Proof.
  intros C O. rewrite sst_sapply. eapply cache_ok_grows; eauto. { apply grows_prims, op_prims_ok, O. } apply incl_appl, incl_refl.
Qed.
End Q.
