(* The statements of property C06 (stated again in Props/C06.v):
   consequences of ProofsTop.trace_refines for the states reachable by any trace; isolation / rename / retention /
   cache coherence transferred to the string-level model; and the boolean form of the premises of a trace, so that
   they can be evaluated (ProofsC06Ex.v, CheckPrem.v). *)
From Coq Require Import List String Ascii Bool Arith ZArith Lia Permutation.
Import ListNotations.
From BD.Hist Require Import GoMatch Model SModel Spec ProofsLib ProofsStore ProofsString ProofsRefine ProofsCache ProofsSpec ProofsTop.
Open Scope string_scope.
Open Scope list_scope.

(* the canonical key universe of a history; runs: (stamp, request id cut at 8) *)
Definition univ (D : list string) (runs : list (string * string)) : list skey :=
  flat_map (fun d => flat_map (fun sr => [mkkey d (fst sr) (snd sr) false; mkkey d (fst sr) (snd sr) true;
                                          tmpk (mkkey d (fst sr) (snd sr) true)]) runs) D.

Section C.
Variable loc : string.
Variable dirhash : string -> string.
Variable D : list string.
Variable days : list string.
Variable K : list skey.
Hypothesis OK : names_okb loc dirhash D days K = true.
Hypothesis KC : closedb D K = true.

Definition sp_state (es : list ev) : hist := fold_left (fun H e => fst (sp_step H e)) es hist_init.
Definition premises (es : list ev) : Prop := Forall (ev_in D days K) es /\ evs_okb loc dirhash ysys_init hist_init es = true.

Lemma reach es : premises es ->
  ytrace loc dirhash sys_init es = sp_trace hist_init es
  /\ INV dirhash D K (yrun loc dirhash sys_init es) (fold_left (ysstep loc dirhash) es ysys_init) (sp_state es).
Proof.
  intros [F P]. apply (trace_refines loc dirhash D days K OK KC es sys_init ysys_init hist_init); auto.
  apply INV_init.
Qed.
Lemma reach_inv es : premises es ->
  INV dirhash D K (yrun loc dirhash sys_init es) (fold_left (ysstep loc dirhash) es ysys_init) (sp_state es).
Proof. intros P. apply (reach es P). Qed.

Theorem refinement es : premises es -> ytrace loc dirhash sys_init es = sp_trace hist_init es.
Proof. intros P. apply (reach es P). Qed.

Lemma query_exact es e : premises es -> ev_in D days K e -> match e with EOp _ => False | _ => True end ->
  snd (ystep loc dirhash (yrun loc dirhash sys_init es) e) = snd (sp_step (sp_state es) e).
Proof.
  intros P EI Q. apply (step_inv loc dirhash D days K OK KC _ _ _ e (reach_inv es P) EI). destruct e; [contradiction|reflexivity..].
Qed.
Theorem find_exact es d req : premises es -> In d D ->
  fpayload (q_find loc dirhash (hfs (y_h (yrun loc dirhash sys_init es))) d req) = sp_find (sp_state es) d req.
Proof. intros P Id. pose proof (query_exact es (EFind d req) P Id I) as A. simpl in A. inversion A. reflexivity. Qed.
Theorem latest_exact es who d day : premises es -> In d D -> (match day with Some x => In x days | None => True end) ->
  snd (ystep loc dirhash (yrun loc dirhash sys_init es) (ELatest who d day)) = ALatest (sp_latest (sp_state es) d day).
Proof. intros P Id Idy. exact (query_exact es (ELatest who d day) P (conj Id Idy) I). Qed.
Theorem recent_exact es who d n : premises es -> In d D ->
  snd (ystep loc dirhash (yrun loc dirhash sys_init es) (ERecent who d n)) = ARecent (sp_recent (sp_state es) d n).
Proof. intros P Id. exact (query_exact es (ERecent who d n) P Id I). Qed.

(* cache coherence: in every reachable state every cache (of every reader and of the operating process) makes
   LoadLatest answer exactly what ParseFile answers *)
Theorem cache_coherent es k : premises es -> In k K ->
  let y := yrun loc dirhash sys_init es in
  let pure := match get_file (hfs (y_h y)) (rdir dirhash (k_dag k)) (rname k) with Some f => parse f | None => None end in
  (forall i, snd (load_latest (y_c y i) (hfs (y_h y)) (rdir dirhash (k_dag k)) (rname k)) = pure)
  /\ snd (load_latest (hcache (y_h y)) (hfs (y_h y)) (rdir dirhash (k_dag k)) (rname k)) = pure.
Proof.
  intros P Ik y pure. pose proof (reach_inv es P) as I. fold y in I.
  destruct I as [Ih Ic Iin Icin _ _ _ Icok Iwok]. destruct Iin as [KI [ND [CI WI]]].
  set (ys := fold_left (ysstep loc dirhash) es ysys_init) in *.
  assert (PE : pure = load_pure (sst (ys_h ys)) k).
  { unfold pure, load_pure. rewrite Ih. simpl. rewrite (get_render loc dirhash D days K OK); auto. }
  assert (X : forall c, cache_in K c -> cache_ok c (sst (ys_h ys)) (ys_seen ys) ->
              snd (load_latest (render_cache dirhash c) (hfs (y_h y)) (rdir dirhash (k_dag k)) (rname k)) = pure).
  { intros c CI' CO. rewrite Ih. simpl. destruct (load_latest_render loc dirhash D days K OK c (sst (ys_h ys)) k KI CI' Ik) as [E _].
    rewrite E. simpl. rewrite PE. apply sload_latest_sound. eapply cache_ok_sound; eauto. }
  split; [intros i; rewrite (Ic i)|rewrite Ih at 1]; apply X; auto.
Qed.

Lemma sp_state_snoc es e : sp_state (es ++ [e]) = fst (sp_step (sp_state es) e).
Proof. unfold sp_state. rewrite fold_left_app. reflexivity. Qed.
Lemma yrun_snoc es e : yrun loc dirhash sys_init (es ++ [e]) = fst (ystep loc dirhash (yrun loc dirhash sys_init es) e).
Proof.
  generalize sys_init. induction es as [|x es IH]; intros y; simpl; auto.
Qed.

(* an operation on other DAGs does not change any answer about d' *)
Theorem isolation es o d' : premises es -> premises (es ++ [EOp o]) -> In d' D -> ~ In d' (op_dags (sp_state es) o) ->
  let y := yrun loc dirhash sys_init es in
  let y' := yrun loc dirhash sys_init (es ++ [EOp o]) in
  (forall req, fpayload (q_find loc dirhash (hfs (y_h y')) d' req) = fpayload (q_find loc dirhash (hfs (y_h y)) d' req))
  /\ (forall who day, (match day with Some x => In x days | None => True end) ->
        snd (ystep loc dirhash y' (ELatest who d' day)) = snd (ystep loc dirhash y (ELatest who d' day)))
  /\ (forall who n, snd (ystep loc dirhash y' (ERecent who d' n)) = snd (ystep loc dirhash y (ERecent who d' n))).
Proof.
  intros P P' Id N y y'.
  pose proof (reach_inv es P) as I. destruct I as [_ _ _ _ [L R] _ _ _ _].
  assert (V : dag_view (sp_state (es ++ [EOp o])) d' = dag_view (sp_state es) d').
  { rewrite sp_state_snoc. simpl. apply sp_isolation; auto. apply (r_ids R). }
  destruct (queries_depend_on_view _ _ d' V) as [Q1 [Q2 Q3]].
  split; [|split].
  - intros req. unfold y, y'. rewrite !find_exact; auto.
  - intros who day Idy. unfold y, y'. rewrite !latest_exact; auto. rewrite Q2. reflexivity.
  - intros who n. unfold y, y'. rewrite !recent_exact; auto. rewrite Q3. reflexivity.
Qed.

(* what was answered for d is answered for d' *)
Theorem rename_carries es d d' : premises es -> premises (es ++ [EOp (ORename d d')]) -> In d D -> In d' D -> d <> d' ->
  dag_view (sp_state es) d' = [] ->
  let y := yrun loc dirhash sys_init es in
  let y' := yrun loc dirhash sys_init (es ++ [EOp (ORename d d')]) in
  (forall req, fpayload (q_find loc dirhash (hfs (y_h y')) d' req) = fpayload (q_find loc dirhash (hfs (y_h y)) d req))
  /\ (forall who day, (match day with Some x => In x days | None => True end) ->
        snd (ystep loc dirhash y' (ELatest who d' day)) = snd (ystep loc dirhash y (ELatest who d day)))
  /\ (forall who n, snd (ystep loc dirhash y' (ERecent who d' n)) = snd (ystep loc dirhash y (ERecent who d n))).
Proof.
  intros P P' Id Id' Nd E y y'.
  destruct (sp_rename_carries (sp_state es) d d' E) as [Q1 [Q2 Q3]].
  assert (S : sp_state (es ++ [EOp (ORename d d')]) = sp_apply (sp_state es) (ORename d d')) by (rewrite sp_state_snoc; reflexivity).
  split; [|split].
  - intros req. unfold y, y'. rewrite !find_exact; auto. rewrite S. apply Q1.
  - intros who day Idy. unfold y, y'. rewrite !latest_exact; auto. rewrite S, Q2. reflexivity.
  - intros who n. unfold y, y'. rewrite !recent_exact; auto. rewrite S, Q3. reflexivity.
Qed.

(* retention removes exactly the history files of d whose mtime is older than the cutoff - nothing of another DAG *)
Theorem retention_exact es d cutoff : premises es -> In d D ->
  let y := yrun loc dirhash sys_init es in
  files (hfs (apply loc dirhash (y_h y) (ORemoveOld d cutoff)))
  = filter (fun e => negb (String.eqb (e_dir e) (rdir dirhash d) && (mtime (e_file e) <? cutoff)%Z)) (files (hfs (y_h y))).
Proof.
  intros P Id y. pose proof (reach_inv es P) as I. fold y in I.
  destruct I as [Ih _ Iin _ [L R] _ _ _ _].
  set (ys := fold_left (ysstep loc dirhash) es ysys_init) in *.
  destruct (apply_render loc dirhash D days K OK KC (ORemoveOld d cutoff) (ys_h ys) Iin Id) as [E _].
  rewrite Ih, E. unfold render_state. cbn [hfs]. rewrite (removeold_files rname (rpath loc dirhash) _ (ys_h ys) _ L d cutoff R).
  unfold render_fs. cbn [files sfiles].
  rewrite filter_map_comm. f_equal. apply filter_ext_in. intros e Ie. unfold dagold, e_dir, e_file. simpl.
  destruct Iin as [[KI DI] _]. rewrite (nk_dir_eqb loc dirhash D days K OK); auto.
  apply (nk_dag loc dirhash D days K OK). auto.
Qed.

(* boolean form of the universe premise, so that all premises of a trace can be evaluated (Examples, the check) *)
Definition memd (d : string) : bool := existsb (String.eqb d) D.
Definition memK (k : skey) : bool := existsb (skey_eqb k) K.
Definition op_inb (o : op) : bool :=
  match o with
  | OOpen d stamp req _ => memd d && memK (mkkey d stamp (trunc8 req) false)
  | OWrite _ _ _ | OClose _ => true
  | OUpdate d _ _ _ _ => memd d
  | ORename d d' => memd d && memd d'
  | ORemoveOld d _ => memd d
  | OTouch d stamp r8 c _ => memK (mkkey d stamp r8 c)
  end.
Definition ev_inb (e : ev) : bool :=
  match e with
  | EOp o => op_inb o
  | ELatest _ d day => memd d && match day with Some x => existsb (String.eqb x) days | None => true end
  | ERecent _ d _ => memd d
  | EFind d _ => memd d
  end.
Definition premisesb (es : list ev) : bool := forallb ev_inb es && evs_okb loc dirhash ysys_init hist_init es.

Lemma memd_in d : memd d = true -> In d D.
Proof. unfold memd. intros H. apply existsb_exists in H. destruct H as [x [I E]]. apply String.eqb_eq in E. subst. auto. Qed.
Lemma memK_in k : memK k = true -> In k K.
Proof. unfold memK. intros H. apply existsb_exists in H. destruct H as [x [I E]]. apply skey_eqb_eq in E. subst. auto. Qed.
Lemma ev_inb_sound e : ev_inb e = true -> ev_in D days K e.
Proof.
  destruct e as [o|who d day|who d n|d req]; simpl; intros H.
  - destruct o; simpl in *; auto;
      repeat match goal with X : (_ && _)%bool = true |- _ => apply andb_prop in X; destruct X end;
      repeat split; auto using memd_in, memK_in.
  - apply andb_prop in H. destruct H as [H1 H2]. split. { apply memd_in; auto. }
    destruct day; auto. apply existsb_exists in H2. destruct H2 as [x [I E]]. apply String.eqb_eq in E. subst. auto.
  - apply memd_in; auto.
  - apply memd_in; auto.
Qed.
Lemma premisesb_sound es : premisesb es = true -> premises es.
Proof.
  unfold premisesb, premises. intros H. apply andb_prop in H. destruct H as [H1 H2]. split; auto.
  apply Forall_forall. intros e Ie. rewrite forallb_forall in H1. apply ev_inb_sound; auto.
Qed.

End C.

Definition all_premisesb (loc : string) (dirhash : string -> string) (D days : list string) (K : list skey) (es : list ev) : bool :=
  names_okb loc dirhash D days K && closedb D K && premisesb loc dirhash D days K es.
