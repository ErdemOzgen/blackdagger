(* The end-to-end refinement: the string-level model of jsondb + filecache (Model.v), driven by ANY interleaving of store
   operations and queries (by the process performing the operations and by any number of reader processes, each with its own
   status cache), answers every query exactly as the run map (Spec.v) does - under the decidable premises names_okb / closedb
   (ProofsString.v: per-path string premises over the DAG paths, days and file keys used) and evs_okb (op_okb / hist_okb of
   ProofsRefine.v at every operation).  Composition of L0 ~ L1 (ProofsString) and L1 ~ spec (ProofsRefine, ProofsCache). *)
From Coq Require Import List String Ascii Bool Arith ZArith Lia Permutation.
Import ListNotations.
From BD.Hist Require Import GoMatch Model SModel Spec ProofsLib ProofsStore ProofsString ProofsRefine ProofsCache ProofsSpec.
Open Scope string_scope.
Open Scope list_scope.

(* who asks: None = the process that performs the operations (its cache receives the Invalidate calls),
   Some j = reader process j *)
Inductive ev :=
| EOp (o : op)
| ELatest (who : option nat) (d : string) (day : option string)
| ERecent (who : option nat) (d : string) (n : nat)
| EFind (d req : string).
Inductive ans := ANone | ALatest (r : lres) | ARecent (l : list payload) | AFind (r : option payload).

Definition set_at {A} (cs : nat -> A) (i : nat) (c : A) : nat -> A := fun j => if Nat.eqb j i then c else cs j.

Definition sp_step (H : hist) (e : ev) : hist * ans :=
  match e with
  | EOp o => (sp_apply H o, ANone)
  | ELatest _ d day => (H, ALatest (sp_latest H d day))
  | ERecent _ d n => (H, ARecent (sp_recent H d n))
  | EFind d req => (H, AFind (sp_find H d req))
  end.
Fixpoint sp_trace (H : hist) (es : list ev) : list ans :=
  match es with [] => [] | e :: r => let (H', a) := sp_step H e in a :: sp_trace H' r end.

Section T.
Variable loc : string.
Variable dirhash : string -> string.
Notation rn := rname.
Notation rp := (rpath loc dirhash).

Record sys := { y_h : hstate; y_c : nat -> cache }.
Definition sys_init : sys := {| y_h := h_init; y_c := fun _ => [] |}.
Definition fpayload (r : fres) : option payload := match r with FFound _ _ p => Some p | _ => None end.
Definition ystep (y : sys) (e : ev) : sys * ans :=
  match e with
  | EOp o => ({| y_h := apply loc dirhash (y_h y) o; y_c := y_c y |}, ANone)
  | ELatest None d day =>
      let (c', r) := q_latest loc dirhash (hcache (y_h y)) (hfs (y_h y)) d day in
      ({| y_h := {| hfs := hfs (y_h y); hwr := hwr (y_h y); hcache := c' |}; y_c := y_c y |}, ALatest r)
  | ELatest (Some i) d day =>
      let (c', r) := q_latest loc dirhash (y_c y i) (hfs (y_h y)) d day in
      ({| y_h := y_h y; y_c := set_at (y_c y) i c' |}, ALatest r)
  | ERecent None d n =>
      let (c', r) := q_recent loc dirhash (hcache (y_h y)) (hfs (y_h y)) d n in
      ({| y_h := {| hfs := hfs (y_h y); hwr := hwr (y_h y); hcache := c' |}; y_c := y_c y |}, ARecent r)
  | ERecent (Some i) d n =>
      let (c', r) := q_recent loc dirhash (y_c y i) (hfs (y_h y)) d n in
      ({| y_h := y_h y; y_c := set_at (y_c y) i c' |}, ARecent r)
  | EFind d req => (y, AFind (fpayload (q_find loc dirhash (hfs (y_h y)) d req)))
  end.
Fixpoint ytrace (y : sys) (es : list ev) : list ans :=
  match es with [] => [] | e :: r => let (y', a) := ystep y e in a :: ytrace y' r end.
Fixpoint yrun (y : sys) (es : list ev) : sys :=
  match es with [] => y | e :: r => yrun (fst (ystep y e)) r end.

Record ysys := { ys_h : sstate; ys_c : nat -> scache; ys_seen : list skey }.
Definition ysys_init : ysys := {| ys_h := s_init; ys_c := fun _ => []; ys_seen := [] |}.
Definition with_cch (h : sstate) (c : scache) : sstate := {| sst := sst h; swr := swr h; scch := c |}.
Definition ysstep (y : ysys) (e : ev) : ysys :=
  match e with
  | EOp o => let h' := sapply rn rp (ys_h y) o in {| ys_h := h'; ys_c := ys_c y; ys_seen := ys_seen y ++ keys (sst h') |}
  | ELatest None d day => {| ys_h := with_cch (ys_h y) (fst (sq_latest rn (scch (ys_h y)) (sst (ys_h y)) d day)); ys_c := ys_c y; ys_seen := ys_seen y |}
  | ELatest (Some i) d day => {| ys_h := ys_h y; ys_c := set_at (ys_c y) i (fst (sq_latest rn (ys_c y i) (sst (ys_h y)) d day)); ys_seen := ys_seen y |}
  | ERecent None d n => {| ys_h := with_cch (ys_h y) (fst (sq_recent rn (scch (ys_h y)) (sst (ys_h y)) d n)); ys_c := ys_c y; ys_seen := ys_seen y |}
  | ERecent (Some i) d n => {| ys_h := ys_h y; ys_c := set_at (ys_c y) i (fst (sq_recent rn (ys_c y i) (sst (ys_h y)) d n)); ys_seen := ys_seen y |}
  | EFind _ _ => y
  end.

Fixpoint evs_okb (y : ysys) (H : hist) (es : list ev) : bool :=
  match es with
  | [] => true
  | e :: r =>
      match e with
      | EOp o => op_okb (ys_h y) (ys_seen y) o && hist_okb (sp_apply H o)
      | _ => true
      end && evs_okb (ysstep y e) (fst (sp_step H e)) r
  end.

Section U.
Variable D : list string.
Variable days : list string.
Variable K : list skey.
Hypothesis OK : names_okb loc dirhash D days K = true.
Hypothesis KC : closedb D K = true.

Definition ev_in (e : ev) : Prop :=
  match e with
  | EOp o => op_in D K o
  | ELatest _ d day => In d D /\ match day with Some x => In x days | None => True end
  | ERecent _ d _ => In d D
  | EFind d _ => In d D
  end.

Record INV (y : sys) (ys : ysys) (H : hist) : Prop := {
  i_h : y_h y = render_state dirhash (ys_h ys);
  i_c : forall i, y_c y i = render_cache dirhash (ys_c ys i);
  i_in : state_in D K (ys_h ys);
  i_cin : forall i, cache_in K (ys_c ys i);
  i_r2 : exists L, R2 (ys_h ys) H L;
  i_ok : hist_okb H = true;
  i_seen : incl (keys (sst (ys_h ys))) (ys_seen ys);
  i_cok : forall i, cache_ok (ys_c ys i) (sst (ys_h ys)) (ys_seen ys);
  i_wok : cache_ok (scch (ys_h ys)) (sst (ys_h ys)) (ys_seen ys)
}.

Lemma INV_init : INV sys_init ysys_init hist_init.
Proof.
  constructor; simpl; auto.
  - apply state_in_init.
  - intros i e [].
  - exists []. apply R2_init.
  - intros x [].
  - intros i. apply cache_ok_nil.
  - apply cache_ok_nil.
Qed.

Definition ycache (y : sys) (who : option nat) : cache := match who with None => hcache (y_h y) | Some i => y_c y i end.
Definition yset (y : sys) (who : option nat) (c : cache) : sys :=
  match who with
  | None => {| y_h := {| hfs := hfs (y_h y); hwr := hwr (y_h y); hcache := c |}; y_c := y_c y |}
  | Some i => {| y_h := y_h y; y_c := set_at (y_c y) i c |}
  end.
Definition yscache (ys : ysys) (who : option nat) : scache := match who with None => scch (ys_h ys) | Some i => ys_c ys i end.
Definition ysset (ys : ysys) (who : option nat) (c : scache) : ysys :=
  match who with
  | None => {| ys_h := with_cch (ys_h ys) c; ys_c := ys_c ys; ys_seen := ys_seen ys |}
  | Some i => {| ys_h := ys_h ys; ys_c := set_at (ys_c ys) i c; ys_seen := ys_seen ys |}
  end.
Lemma ystep_latest y who d day : ystep y (ELatest who d day)
  = let (c', r) := q_latest loc dirhash (ycache y who) (hfs (y_h y)) d day in (yset y who c', ALatest r).
Proof. destruct who; reflexivity. Qed.
Lemma ystep_recent y who d n : ystep y (ERecent who d n)
  = let (c', r) := q_recent loc dirhash (ycache y who) (hfs (y_h y)) d n in (yset y who c', ARecent r).
Proof. destruct who; reflexivity. Qed.
Lemma ysstep_latest ys who d day : ysstep ys (ELatest who d day) = ysset ys who (fst (sq_latest rn (yscache ys who) (sst (ys_h ys)) d day)).
Proof. destruct who; reflexivity. Qed.
Lemma ysstep_recent ys who d n : ysstep ys (ERecent who d n) = ysset ys who (fst (sq_recent rn (yscache ys who) (sst (ys_h ys)) d n)).
Proof. destruct who; reflexivity. Qed.

Lemma INV_cache y ys H who : INV y ys H ->
  ycache y who = render_cache dirhash (yscache ys who) /\ cache_in K (yscache ys who)
  /\ cache_ok (yscache ys who) (sst (ys_h ys)) (ys_seen ys).
Proof.
  intros I. destruct who as [i|]; simpl.
  - split; [apply (i_c _ _ _ I)|split; [apply (i_cin _ _ _ I)|apply (i_cok _ _ _ I)]].
  - rewrite (i_h _ _ _ I). split; [reflexivity|split; [apply (i_in _ _ _ I)|apply (i_wok _ _ _ I)]].
Qed.
Lemma INV_set y ys H who c : INV y ys H -> cache_in K c -> cache_ok c (sst (ys_h ys)) (ys_seen ys) ->
  INV (yset y who (render_cache dirhash c)) (ysset ys who c) H.
Proof.
  intros [Ih Ic Iin Icin [L R] Iok Iseen Icok Iwok] CI CO. destruct who as [i|]; constructor; simpl; auto; try (exists L; exact R).
  - intros j. unfold set_at. destruct (Nat.eqb j i); auto.
  - intros j. unfold set_at. destruct (Nat.eqb j i); auto.
  - intros j. unfold set_at. destruct (Nat.eqb j i); auto.
  - rewrite Ih. reflexivity.
  - destruct Iin as [A [B [_ E]]]. exact (conj A (conj B (conj CI E))).
  - exists L. apply (R2g_same true (ys_h ys) H L); auto.
Qed.

Lemma scch_apply h o : scch (sapply rn rp h o) = scch h \/ exists k, scch (sapply rn rp h o) = scache_del (scch h) k.
Proof.
  unfold sapply. destruct o; simpl; auto.
  - destruct (swr h); simpl; auto. destruct (sget (sst h) (sw_key s)); simpl; eauto.
  - destruct (sq_find rn rp (sst h) d req); simpl; eauto.
Qed.

Lemma step_inv y ys H e : INV y ys H -> ev_in e ->
  (match e with EOp o => op_okb (ys_h ys) (ys_seen ys) o && hist_okb (sp_apply H o) | _ => true end = true) ->
  INV (fst (ystep y e)) (ysstep ys e) (fst (sp_step H e)) /\ snd (ystep y e) = snd (sp_step H e).
Proof.
  intros I EI P. pose proof I as [Ih Ic Iin Icin [L R] Iok Iseen Icok Iwok].
  destruct Iin as [KI [ND [CI WI]]].
  assert (SI : state_in D K (ys_h ys)) by exact (conj KI (conj ND (conj CI WI))).
  assert (HF : hfs (y_h y) = render_fs dirhash (sst (ys_h ys))) by (rewrite Ih; reflexivity).
  destruct e as [o | who d day | who d n | d req]; simpl in EI.
  - apply andb_prop in P. destruct P as [P1 P2].
    destruct (apply_render loc dirhash D days K OK KC o (ys_h ys) SI EI) as [E SI'].
    destruct (step_sim rn rp (ys_h ys) H L (ys_seen ys) o R Iok Iseen P1) as [L' R'].
    split; [|reflexivity]. simpl. constructor; simpl; auto.
    + rewrite Ih. exact E.
    + exists L'. exact R'.
    + apply incl_appr, incl_refl.
    + intros i. apply cache_ok_apply; auto.
    + pose proof (cache_ok_apply rn rp (ys_h ys) (ys_seen ys) o (scch (ys_h ys)) Iwok P1) as C.
      destruct (scch_apply (ys_h ys) o) as [X|[k X]]; rewrite X; auto. apply cache_ok_del; auto.
  - destruct EI as [Ed Eday]. destruct (INV_cache y ys H who I) as [Ec [CIw COw]].
    rewrite ystep_latest, ysstep_latest, Ec, HF.
    destruct (q_latest_render loc dirhash D days K OK (yscache ys who) (sst (ys_h ys)) d day KI ND CIw Ed Eday) as [E CI'].
    rewrite E. cbn [fst snd sp_step]. split.
    + apply INV_set; auto. apply cache_ok_latest; auto.
    + f_equal. apply (latest_refines rn true (ys_h ys) H L _ d day R Iok (cache_ok_sound _ _ _ COw)).
  - destruct (INV_cache y ys H who I) as [Ec [CIw COw]].
    rewrite ystep_recent, ysstep_recent, Ec, HF.
    destruct (q_recent_render loc dirhash D days K OK (yscache ys who) (sst (ys_h ys)) d n KI ND CIw EI) as [E CI'].
    rewrite E. cbn [fst snd sp_step]. split.
    + apply INV_set; auto. apply cache_ok_recent; auto.
    + f_equal. apply (recent_refines rn true (ys_h ys) H L _ d n R Iok (cache_ok_sound _ _ _ COw)).
  - simpl. split; [exact I|]. rewrite HF, (q_find_render loc dirhash D days K OK) by auto.
    rewrite <- (find_refines rn rp true (ys_h ys) H L d req R Iok).
    destruct (sq_find rn rp (sst (ys_h ys)) d req); reflexivity.
Qed.

(* ProofsC06.v derives the property theorems from this one *)
Theorem trace_refines es : forall y ys H, INV y ys H -> Forall ev_in es -> evs_okb ys H es = true ->
  ytrace y es = sp_trace H es /\ INV (yrun y es) (fold_left ysstep es ys) (fold_left (fun H e => fst (sp_step H e)) es H).
Proof.
  induction es as [|e es IH]; intros y ys H I F P; simpl in *; auto.
  inversion F; subst. apply andb_prop in P. destruct P as [P1 P2].
  destruct (step_inv y ys H e I H2 P1) as [I' A].
  destruct (ystep y e) as [y' a] eqn:Ey. destruct (sp_step H e) as [H' a'] eqn:Es. simpl in *. subst a'.
  destruct (IH y' (ysstep ys e) H' I' H3 P2) as [T I2]. split; [f_equal; auto|auto].
Qed.

End U.
End T.
