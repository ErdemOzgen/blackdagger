(* C17 - proofs about the request filter model (Auth/Model.v), for ALL byte strings and configurations.  The theorems
   of Props/C17.v are closed by b64_roundtrip, sound, parse_basic_spec, complete_*, open, deny, auth_cases, non_api and
   wrong_*_denied. *)
From Coq Require Import List String Ascii Bool Arith NArith ZArith Lia.
Import ListNotations.
From BD.Auth Require Import Model.

Lemma la_eqb_refl a : la_eqb a a = true.
Proof. induction a; simpl; auto. unfold aeq. rewrite Ascii.eqb_refl. auto. Qed.

Lemma la_eqb_iff a b : la_eqb a b = true <-> a = b.
Proof.
  split; [|intros ->; apply la_eqb_refl].
  revert b. induction a as [|x a IH]; destruct b as [|y b]; simpl; intros H; try reflexivity; try discriminate.
  apply andb_true_iff in H. destruct H as [H1 H2]. apply Ascii.eqb_eq in H1. apply IH in H2. congruence.
Qed.

Lemma la_eqb_spec a b : reflect (a = b) (la_eqb a b).
Proof. apply iff_reflect. symmetry. apply la_eqb_iff. Qed.

Lemma is_nil_true s : is_nil s = true -> s = [].
Proof. destruct s; simpl; auto; discriminate. Qed.

(* base64: the 64-symbol alphabet by a finite sweep, the 3-byte groups by lia over div/mod *)
Definition below (n : nat) : list N := map N.of_nat (seq 0 n).

Lemma below_spec k n : (n < N.of_nat k)%N -> In n (below k).
Proof.
  intros H. unfold below. apply in_map_iff. exists (N.to_nat n). split; [apply N2Nat.id|].
  apply in_seq. lia.
Qed.

Definition clean (c : ascii) : Prop := is_crlf c = false /\ aeq c sp = false.

Definition sym_ok (n : N) : bool :=
  match b64val (b64chr n) with Some m => (m =? n)%N | None => false end
  && negb (is_crlf (b64chr n)) && negb (aeq (b64chr n) sp).

Lemma sym_sweep : forallb sym_ok (below 64) = true.
Proof. vm_compute. reflexivity. Qed.

Lemma sym_spec n : (n < 64)%N -> b64val (b64chr n) = Some n /\ clean (b64chr n).
Proof.
  intros H. pose proof (proj1 (forallb_forall _ _) sym_sweep n (below_spec 64 n H)) as S. unfold sym_ok in S.
  apply andb_true_iff in S as [S S3]. apply andb_true_iff in S as [S1 S2]. apply negb_true_iff in S2, S3.
  destruct (b64val (b64chr n)); [|discriminate]. apply N.eqb_eq in S1. subst. now split.
Qed.
Lemma b64val_chr n : (n < 64)%N -> b64val (b64chr n) = Some n.
Proof. apply sym_spec. Qed.
Lemma clean_chr n : (n < 64)%N -> clean (b64chr n).
Proof. apply sym_spec. Qed.

Lemma b64val_pad : b64val pad = None.
Proof. vm_compute. reflexivity. Qed.
Lemma clean_pad : clean pad.
Proof. split; reflexivity. Qed.

Lemma byte_of a : byte (N_of_ascii a) = a.
Proof.
  unfold byte. rewrite N.mod_small by apply N_ascii_bounded. apply ascii_N_embedding.
Qed.

Lemma grp1 x y : (x < 256 -> y < 256 -> x / 4 * 4 + ((x mod 4) * 16 + y / 16) / 16 = x)%N.
Proof. intros. zify. Z.to_euclidean_division_equations. lia. Qed.
Lemma grp2 x y z : (x < 256 -> y < 256 -> z < 256 ->
  (((x mod 4) * 16 + y / 16) mod 16) * 16 + ((y mod 16) * 4 + z / 64) / 4 = y)%N.
Proof. intros. zify. Z.to_euclidean_division_equations. lia. Qed.
Lemma grp3 y z : (y < 256 -> z < 256 -> (((y mod 16) * 4 + z / 64) mod 4) * 64 + z mod 64 = z)%N.
Proof. intros. zify. Z.to_euclidean_division_equations. lia. Qed.
(* the last, padded group is the full one with 0 for the missing byte *)
Lemma grp1_last x : (x < 256 -> x / 4 * 4 + ((x mod 4) * 16) / 16 = x)%N.
Proof. intros H. pose proof (grp1 x 0 H eq_refl) as G. now rewrite N.add_0_r in G. Qed.
Lemma grp2_last x y : (x < 256 -> y < 256 -> (((x mod 4) * 16 + y / 16) mod 16) * 16 + ((y mod 16) * 4) / 4 = y)%N.
Proof. intros Hx Hy. pose proof (grp2 x y 0 Hx Hy eq_refl) as G. now rewrite N.add_0_r in G. Qed.

Lemma rng_a x : (x < 256 -> x / 4 < 64)%N.
Proof. intros. zify. Z.to_euclidean_division_equations. lia. Qed.
Lemma rng_b x y : (x < 256 -> y < 256 -> (x mod 4) * 16 + y / 16 < 64)%N.
Proof. intros. zify. Z.to_euclidean_division_equations. lia. Qed.
Lemma rng_b0 x : (x < 256 -> (x mod 4) * 16 < 64)%N.
Proof. intros H. pose proof (rng_b x 0 H eq_refl) as G. now rewrite N.add_0_r in G. Qed.
Lemma rng_c y z : (y < 256 -> z < 256 -> (y mod 16) * 4 + z / 64 < 64)%N.
Proof. intros. zify. Z.to_euclidean_division_equations. lia. Qed.
Lemma rng_c0 y : (y < 256 -> (y mod 16) * 4 < 64)%N.
Proof. intros H. pose proof (rng_c y 0 H eq_refl) as G. now rewrite N.add_0_r in G. Qed.
Lemma rng_d z : (z mod 64 < 64)%N.
Proof. apply N.mod_lt. discriminate. Qed.

Lemma la_ind3 (P : la -> Prop) :
  P [] -> (forall a, P [a]) -> (forall a b, P [a; b]) -> (forall a b c r, P r -> P (a :: b :: c :: r)) ->
  forall l, P l.
Proof.
  intros H0 H1 H2 H3 l.
  enough (A : P l /\ (forall a, P (a :: l)) /\ (forall a b, P (a :: b :: l))) by apply A.
  induction l as [|c l (I0 & I1 & I2)]; auto.
Qed.

Lemma b64_dec_aux_enc l : b64_dec_aux (b64_enc l) = Some l.
Proof.
  pose proof N_ascii_bounded as B.
  induction l as [|a|a b|a b c r IH] using la_ind3; [reflexivity | ..]; cbn [b64_enc b64_dec_aux].
  - rewrite (b64val_chr _ (rng_a _ (B a))), (b64val_chr _ (rng_b0 _ (B a))), b64val_pad.
    unfold aeq. rewrite Ascii.eqb_refl. cbn [andb is_nil].
    now rewrite (grp1_last _ (B a)), byte_of.
  - rewrite (b64val_chr _ (rng_a _ (B a))), (b64val_chr _ (rng_b _ _ (B a) (B b))), (b64val_chr _ (rng_c0 _ (B b))), b64val_pad.
    unfold aeq. rewrite Ascii.eqb_refl. cbn [andb is_nil].
    now rewrite (grp1 _ _ (B a) (B b)), (grp2_last _ _ (B a) (B b)), !byte_of.
  - rewrite (b64val_chr _ (rng_a _ (B a))), (b64val_chr _ (rng_b _ _ (B a) (B b))), (b64val_chr _ (rng_c _ _ (B b) (B c))),
      (b64val_chr _ (rng_d _)), IH.
    now rewrite (grp1 _ _ (B a) (B b)), (grp2 _ _ _ (B a) (B b) (B c)), (grp3 _ _ (B b) (B c)), !byte_of.
Qed.

(* every symbol of an encoding is an alphabet symbol or the padding: no CR/LF, no space *)
Lemma b64_enc_clean l : Forall clean (b64_enc l).
Proof.
  induction l as [|a|a b|a b c r IH] using la_ind3; cbn [b64_enc]; repeat apply Forall_cons;
    auto using clean_pad, clean_chr, rng_a, rng_b, rng_b0, rng_c, rng_c0, rng_d, N_ascii_bounded.
Qed.

Lemma strip_clean s : Forall clean s -> strip_crlf s = s.
Proof.
  induction 1 as [|c s [Hc _] _ IH]; simpl; auto. rewrite Hc. simpl. now rewrite IH.
Qed.

(* THE ROUND TRIP: StdEncoding.DecodeString (StdEncoding.EncodeToString l) = l, for every byte string *)
Theorem b64_roundtrip l : b64_dec (b64_enc l) = Some l.
Proof. unfold b64_dec. rewrite (strip_clean _ (b64_enc_clean l)). apply b64_dec_aux_enc. Qed.

Lemma split_sp_nonempty s : split_sp s <> [].
Proof. induction s as [|c s IH]; simpl; [discriminate|]. destruct (aeq c sp); [discriminate|]. destruct (split_sp s); discriminate. Qed.

Definition no_sp (w : la) : Prop := Forall (fun c => aeq c sp = false) w.

Lemma split_sp_word w : no_sp w -> split_sp w = [w].
Proof. induction 1 as [|c w Hc _ IH]; simpl; auto. now rewrite Hc, IH. Qed.

Lemma split_sp_app w x : no_sp w -> split_sp (w ++ sp :: x) = w :: split_sp x.
Proof.
  induction 1 as [|c w Hc _ IH]; simpl.
  - reflexivity.
  - now rewrite Hc, IH.
Qed.

Lemma cut_app sep u p : Forall (fun c => aeq c sep = false) u -> cut sep (u ++ sep :: p) = Some (u, p).
Proof.
  induction 1 as [|c u Hc _ IH]; simpl.
  - unfold aeq. now rewrite Ascii.eqb_refl.
  - now rewrite Hc, IH.
Qed.

Lemma cut_sound sep s a b : cut sep s = Some (a, b) -> s = a ++ sep :: b.
Proof.
  revert a. induction s as [|c s IH]; simpl; intros a H; [discriminate|].
  destruct (aeq c sep) eqn:E.
  - injection H as <- <-. apply Ascii.eqb_eq in E. now subst.
  - destruct (cut sep s) as [[a' b']|]; [|discriminate]. injection H as <- <-. simpl. now rewrite (IH a' eq_refl).
Qed.

Lemma not_in_forall (sep : ascii) (u : la) : ~ In sep u -> Forall (fun c => aeq c sep = false) u.
Proof.
  intros H. apply Forall_forall. intros c Hc. unfold aeq. apply Ascii.eqb_neq. intros ->. contradiction.
Qed.

Lemma clean_no_sp s : Forall clean s -> no_sp s.
Proof. apply Forall_impl. intros c [_ H]. exact H. Qed.

Lemma parse_basic_std u p : ~ In colon u -> parse_basic (std_basic u p) = Some (u, p).
Proof.
  intros Hu. unfold parse_basic, std_basic.
  change (L "Basic ") with ["B"; "a"; "s"; "i"; "c"; " "]%char.
  cbn [app List.length Nat.ltb Nat.leb firstn skipn].
  replace (equal_fold ["B"; "a"; "s"; "i"; "c"; " "]%char ["B"; "a"; "s"; "i"; "c"; " "]%char) with true by (vm_compute; reflexivity).
  cbn [negb]. rewrite b64_roundtrip. apply cut_app. now apply not_in_forall.
Qed.

Lemma parse_basic_spec h u p : parse_basic h = Some (u, p) ->
  exists pre payload, h = pre ++ payload /\ equal_fold pre (L "Basic ") = true /\ b64_dec payload = Some (u ++ colon :: p).
Proof.
  unfold parse_basic. intros H.
  destruct (List.length h <? 6); [discriminate|].
  destruct (equal_fold (firstn 6 h) (L "Basic ")) eqn:E; [|discriminate]. cbn [negb] in H.
  destruct (b64_dec (skipn 6 h)) as [cs|] eqn:D; [|discriminate].
  exists (firstn 6 h), (skipn 6 h). rewrite firstn_skipn. repeat split; auto.
  now rewrite (cut_sound _ _ _ _ H) in D.
Qed.

Lemma equal_fold_len a b : equal_fold a b = true -> List.length a = List.length b.
Proof. unfold equal_fold. intros H. apply la_eqb_iff in H. rewrite <- (map_length lower a), H. apply map_length. Qed.

Lemma token_mw_cases c authed h : token_mw c authed h =
  match token c with None => Api | Some _ => if authed || carries_token c h then Api else Unauth end.
Proof.
  unfold token_mw, carries_token. destruct (token c) as [t|]; [|reflexivity]. destruct authed; [reflexivity|].
  destruct (split_sp h) as [|w0 [|w ws]]; try reflexivity.
  destruct (is_nil w); [reflexivity|]. simpl. destruct (la_eqb w t); reflexivity.
Qed.

Lemma token_mw_api c authed h : token_mw c authed h = Api ->
  token c = None \/ authed = true \/ carries_token c h = true.
Proof.
  rewrite token_mw_cases. destruct (token c); [|auto]. destruct authed; [auto|].
  destruct (carries_token c h); [auto|discriminate].
Qed.

Lemma auth_cases c h : auth c h =
  match basic c with
  | None => match token c with None => Api | Some _ => if carries_token c h then Api else Unauth end
  | Some _ => if skip_basic c h then (if carries_token c h then Api else Unauth)
              else if carries_basic c h then Api else Unauth
  end.
Proof.
  unfold auth, carries_basic. destruct (basic c) as [[u p]|]; [|apply token_mw_cases].
  destruct (skip_basic c h) eqn:S.
  - rewrite token_mw_cases. unfold skip_basic in S. destruct (token c); [reflexivity|discriminate].
  - destruct (parse_basic h) as [[u' p']|]; [|reflexivity].
    destruct (la_eqb u' u && la_eqb p' p); [|reflexivity]. rewrite token_mw_cases. now destruct (token c).
Qed.

Lemma auth_only_two c h : auth c h = Api \/ auth c h = Unauth.
Proof.
  rewrite auth_cases. destruct (basic c), (token c); try destruct (skip_basic c h);
    try destruct (carries_token c h); try destruct (carries_basic c h); auto.
Qed.

Lemma chain_api c r : chain c r = Api -> route c r = Api /\ auth c (hdr r) = Api.
Proof. unfold chain. destruct (route c r); try discriminate. auto. Qed.

Lemma chain_route_api c r : route c r = Api -> chain c r = auth c (hdr r).
Proof. unfold chain. now intros ->. Qed.

Lemma unauth_unserved c r : chain c r = Unauth -> chain c r = Unauth /\ served c r = false.
Proof. intros E. unfold served. now rewrite E. Qed.

Lemma carries_basic_spec c h : carries_basic c h = true ->
  exists u p, basic c = Some (u, p) /\ parse_basic h = Some (u, p).
Proof.
  unfold carries_basic. destruct (basic c) as [[u p]|]; [|discriminate].
  destruct (parse_basic h) as [[u' p']|]; [|discriminate]. intros H.
  apply andb_true_iff in H. destruct H as [H1 H2]. apply la_eqb_iff in H1, H2. subst. eauto.
Qed.

Lemma carries_token_spec c h : carries_token c h = true ->
  exists t, token c = Some t /\ t <> [] /\ nth_error (split_sp h) 1 = Some t.
Proof.
  unfold carries_token. destruct (token c) as [t|]; [|discriminate].
  destruct (split_sp h) as [|w0 [|w ws]]; try discriminate. intros H.
  apply andb_true_iff in H. destruct H as [H1 H2]. apply la_eqb_iff in H2. rewrite <- H2.
  exists w. repeat split; auto. intros E. rewrite E in H1. discriminate.
Qed.

(* a request reaches the API only with no authentication configured, or with the configured
   basic pair, or with the configured (non-empty) token as the second space-separated word of the header *)
Theorem sound c r : chain c r = Api ->
  route c r = Api /\
  ( (basic c = None /\ token c = None)
    \/ (exists u p, basic c = Some (u, p) /\ parse_basic (hdr r) = Some (u, p))
    \/ (exists t, token c = Some t /\ t <> [] /\ nth_error (split_sp (hdr r)) 1 = Some t) ).
Proof.
  intros H. apply chain_api in H as [HR HA]. split; [exact HR|]. rewrite auth_cases in HA.
  destruct (carries_token c (hdr r)) eqn:CT; [right; right; now apply carries_token_spec|].
  destruct (carries_basic c (hdr r)) eqn:CB; [right; left; now apply carries_basic_spec|].
  left. destruct (basic c), (token c); try destruct (skip_basic c (hdr r)); try discriminate; auto.
Qed.

Lemma served_chain c r : served c r = true -> chain c r = Api.
Proof. unfold served. destruct (chain c r); try discriminate. auto. Qed.

Theorem open c r : basic c = None -> token c = None -> route c r = Api -> chain c r = Api.
Proof. intros B T R. now rewrite (chain_route_api _ _ R), auth_cases, B, T. Qed.

Theorem deny c r : route c r = Api -> no_auth c = false ->
  carries_basic c (hdr r) = false -> carries_token c (hdr r) = false ->
  chain c r = Unauth /\ served c r = false.
Proof.
  intros R N CB CT. apply unauth_unserved.
  rewrite (chain_route_api _ _ R), auth_cases, CB, CT. unfold no_auth in N.
  destruct (basic c), (token c); try discriminate; try destruct (skip_basic c (hdr r)); reflexivity.
Qed.

Lemma route_not_unauth c r : route c r <> Unauth.
Proof.
  unfold route. destruct (_ && _); [discriminate|]. destruct (_ || _); [destruct (has_prefix _ _)|]; discriminate.
Qed.

Theorem non_api c r : route c r <> Api -> chain c r <> Api /\ chain c r <> Unauth /\ served c r = false.
Proof.
  intros R. pose proof (route_not_unauth c r) as U. unfold served, chain.
  destruct (route c r); repeat split; try discriminate; exfalso; first [apply R; reflexivity | apply U; reflexivity].
Qed.

Lemma skip_basic_std c u p : skip_basic c (std_basic u p) = false.
Proof.
  unfold skip_basic. destruct (token c); [|reflexivity].
  unfold std_basic. change (L "Basic ") with (L "Basic" ++ [sp]). rewrite <- app_assoc. cbn [app].
  rewrite split_sp_app by (repeat constructor).
  cbn [hd]. replace (la_eqb (L "Basic") (L "Bearer")) with false by (vm_compute; reflexivity).
  apply andb_false_r.
Qed.

Lemma auth_std_basic c u p u' p' : basic c = Some (u, p) -> ~ In colon u' ->
  auth c (std_basic u' p') = if la_eqb u' u && la_eqb p' p then Api else Unauth.
Proof. intros B Hu. rewrite auth_cases, B, skip_basic_std. unfold carries_basic. now rewrite B, (parse_basic_std u' p' Hu). Qed.

Lemma auth_std_bearer c t t' : token c = Some t -> ~ In sp t' ->
  auth c (std_bearer t') = if negb (is_nil t') && la_eqb t' t then Api else Unauth.
Proof.
  intros T Hsp. rewrite auth_cases. unfold skip_basic, carries_token, std_bearer. rewrite T.
  change (L "Bearer ") with (L "Bearer" ++ [sp]). rewrite <- app_assoc. cbn [app].
  rewrite split_sp_app by (repeat constructor). rewrite split_sp_word by now apply not_in_forall.
  cbn [List.length hd Nat.leb]. rewrite la_eqb_refl. now destruct (basic c).
Qed.

Theorem complete_basic c r u p : basic c = Some (u, p) -> ~ In colon u ->
  route c r = Api -> hdr r = std_basic u p -> chain c r = Api.
Proof. intros B Hu R Hh. now rewrite (chain_route_api _ _ R), Hh, (auth_std_basic _ _ _ _ _ B Hu), !la_eqb_refl. Qed.

Theorem complete_token c r t : token c = Some t -> t <> [] -> ~ In sp t ->
  route c r = Api -> hdr r = std_bearer t -> chain c r = Api.
Proof.
  intros T Hne Hsp R Hh. rewrite (chain_route_api _ _ R), Hh, (auth_std_bearer _ _ _ T Hsp), la_eqb_refl.
  destruct t; [contradiction | reflexivity].
Qed.

Lemma no_auth_open c r : no_auth c = true -> route c r = Api -> chain c r = Api.
Proof.
  unfold no_auth. intros N R. destruct (basic c) eqn:B; [discriminate|]. destruct (token c) eqn:T; [discriminate|].
  now apply open.
Qed.

(* concrete states: the premises are satisfiable, the outcomes are not trivial *)
Definition cfg_both : cfg := {| basic := Some (L "admin", L "secret"); token := Some (L "tok123"); base_path := L "/bd" |}.
Definition rq (m p h : string) : req := {| method := L m; path := L p; rawpath := []; hdr := L h |}.

Example ex_enc : b64_enc (L "admin:secret") = L "YWRtaW46c2VjcmV0" /\ b64_enc (L "a") = L "YQ==" /\ b64_enc (L "ab") = L "YWI=".
Proof. vm_compute. auto. Qed.
Example ex_dec : b64_dec (L "YWRtaW46c2VjcmV0") = Some (L "admin:secret") /\ b64_dec (L "YR==") = Some (L "a")
  /\ b64_dec (L "YQ=") = None /\ b64_dec (L "YQ") = None /\ b64_dec (L "YQ==YQ==") = None /\ b64_dec (L "Y!==") = None.
Proof. vm_compute. repeat split. Qed.
Example ex_std_basic : std_basic (L "admin") (L "secret") = L "Basic YWRtaW46c2VjcmV0" /\ ~ In colon (L "admin").
Proof. split; [vm_compute; reflexivity|]. simpl. intuition discriminate. Qed.
Example ex_std_bearer : std_bearer (L "tok123") = L "Bearer tok123" /\ L "tok123" <> [] /\ ~ In sp (L "tok123").
Proof. split; [reflexivity|]. split; [discriminate|]. simpl. intuition discriminate. Qed.
Example ex_chain :
  chain cfg_both (rq "GET" "/bd/api/v1/dags" "Basic YWRtaW46c2VjcmV0") = Api /\
  chain cfg_both (rq "GET" "/bd/api/v1/dags" "Bearer tok123") = Api /\
  chain cfg_both (rq "GET" "/bd/api/v1/dags" "Bearer tok12") = Unauth /\
  chain cfg_both (rq "GET" "/bd/api/v1/dags" "Basic YWRtaW46c2VjcmV") = Unauth /\
  chain cfg_both (rq "GET" "/bd/api/v1/dags" "") = Unauth /\
  chain cfg_both (rq "GET" "/bd/dags/x" "") = Static /\
  chain cfg_both (rq "GET" "/" "") = Redirect /\
  chain cfg_both (rq "GET" "/api/v1/dags" "Bearer tok123") = NotFound /\
  served cfg_both (rq "OPTIONS" "/bd/api/v1/dags" "Bearer tok123") = false /\
  served cfg_both (rq "POST" "/bd/api/v1/dags" "Bearer tok123") = true.
Proof. vm_compute. repeat split. Qed.
Example ex_deny_premises :
  route cfg_both (rq "GET" "/bd/api/v1/dags" "Token tok123") = Api /\ no_auth cfg_both = false /\
  carries_basic cfg_both (L "Bearer dG9rMTIz") = false /\ carries_token cfg_both (L "Bearer dG9rMTIz") = false.
Proof. vm_compute. repeat split. Qed.

(* a password containing colons: net/http cuts user:password at the FIRST colon, so the standard form of the configured pair
   passes (complete_basic puts no condition on the password) and neither `password:junk` nor the password cut at its first
   colon does *)
Definition cfg_colon : cfg := {| basic := Some (L "admin", L "a:b:c"); token := None; base_path := [] |}.
Example ex_colon_password :
  chain cfg_colon {| method := L "GET"; path := L "/api/v1/dags"; rawpath := []; hdr := std_basic (L "admin") (L "a:b:c") |} = Api /\
  chain cfg_colon {| method := L "GET"; path := L "/api/v1/dags"; rawpath := []; hdr := std_basic (L "admin") (L "a:b:c:junk") |} = Unauth /\
  chain cfg_colon {| method := L "GET"; path := L "/api/v1/dags"; rawpath := []; hdr := std_basic (L "admin") (L "a") |} = Unauth /\
  parse_basic (std_basic (L "admin") (L "a:b:c")) = Some (L "admin", L "a:b:c").
Proof. vm_compute. repeat split. Qed.

(* wrong secrets in the standard forms are refused - for every user/password/token other than the configured one,
   whatever else is configured (a configured token does not let a wrong Basic pair through, and the reverse) *)
Theorem wrong_basic_denied c r u p u' p' : basic c = Some (u, p) -> ~ In colon u' -> (u', p') <> (u, p) ->
  route c r = Api -> hdr r = std_basic u' p' -> chain c r = Unauth /\ served c r = false.
Proof.
  intros B Hu Hne R Hh. apply unauth_unserved.
  rewrite (chain_route_api _ _ R), Hh, (auth_std_basic _ _ _ _ _ B Hu).
  destruct (la_eqb_spec u' u) as [->|]; [|reflexivity]. destruct (la_eqb_spec p' p) as [->|]; [now elim Hne | reflexivity].
Qed.

Theorem wrong_token_denied c r t t' : token c = Some t -> ~ In sp t' -> t' <> t ->
  route c r = Api -> hdr r = std_bearer t' -> chain c r = Unauth /\ served c r = false.
Proof.
  intros T Hsp Hne R Hh. apply unauth_unserved.
  rewrite (chain_route_api _ _ R), Hh, (auth_std_bearer _ _ _ T Hsp).
  destruct (la_eqb_spec t' t); [contradiction | now rewrite andb_false_r].
Qed.
