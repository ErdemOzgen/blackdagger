(* C16 - proofs about the (repaired, a924e5c) protocol model Sock/Model.v, over ALL interleavings of any number of processes. *)
From Coq Require Import List Bool Arith Lia.
Import ListNotations.
From BD.Sock Require Import Model.

Lemma upd_same {A} (f : nat -> A) p v : upd f p v p = v.
Proof. unfold upd. now rewrite Nat.eqb_refl. Qed.
Lemma upd_other {A} (f : nat -> A) p v q : q <> p -> upd f p v q = f q.
Proof. intros H. unfold upd. destruct (Nat.eqb_spec q p); [contradiction|reflexivity]. Qed.

Lemma in_snoc (x p : nat) l : In x (l ++ [p]) <-> In x l \/ x = p.
Proof. rewrite in_app_iff. simpl. intuition. Qed.

(* Which action the moving process performs: every action occurs once in `program`, so the program counter and the
   action determine each other. *)
Definition pc_of (a : act) : nat :=
  match a with
  | BuildGraph => 0 | EvalPre => 1 | Lock => 2 | Probe => 3 | RemoveOld => 4 | OpenHist => 5 | WriteS0 => 6 | UnlinkSock => 7
  | Bind => 8 | Unlock => 9 | Steps => 10 | Handlers => 11 | WriteFinal => 12 | ShutUnlink => 13 | ShutClose => 14 | CloseHist => 15
  end.

Lemma cur_pc w p a : cur w p = Some a -> pc (procs w p) = pc_of a.
Proof.
  unfold cur. generalize (pc (procs w p)) as n. intros n.
  do 16 (destruct n as [|n]; [intros [= <-]; reflexivity|]). destruct n; discriminate.
Qed.

Lemma step_cur p w w' : step (Do p) w = Some w' -> exists a, cur w p = Some a.
Proof. unfold step. destruct (cur w p) as [a|]; [eauto | discriminate]. Qed.

Lemma step_enabled p w w' : step (Do p) w = Some w' -> pc (procs w p) < pcEnd.
Proof. intros Hs. destruct (step_cur _ _ _ Hs) as [a Hc]. rewrite (cur_pc _ _ _ Hc). unfold pcEnd. destruct a; cbn; lia. Qed.

Ltac fin :=
  cbn [lock sock listening hist execd procs pc refused bindfail set_proc set_pc adv set_sock set_listening add_hist add_exec set_lock] in *;
  unfold pcEnd, pcOpen, pcSteps, pcBind, pcCloseHist, pcProbe, pcUnlink, pcShutUnlink, pcShutClose, pcLock, pcUnlock in *.

(* Hs : step (Do p) w = Some w'.  One goal per action a of p and per outcome of the action; the state of p is named
   (Es), its program counter is the numeral pc_of a, the shared state it inspects is named (An, Sk, Lk), w' is replaced
   by its value. *)
Ltac step_cases Hs p w :=
  let a := fresh "a" in let Hc := fresh "Hc" in let Hpc := fresh "Hpc" in
  destruct (step_cur _ _ _ Hs) as [a Hc]; pose proof (cur_pc _ _ _ Hc) as Hpc;
  unfold step in Hs; rewrite Hc in Hs; clear Hc;
  destruct (procs w p) as [pcv rf bf] eqn:Es; cbn [pc refused bindfail] in *; subst pcv;
  destruct a; cbn [pc_of] in *;
  repeat match type of Hs with
         | context [answering w] => destruct (answering w) eqn:An
         | context [match sock w with _ => _ end] => destruct (sock w) eqn:Sk
         | context [match lock w with _ => _ end] => destruct (lock w) eqn:Lk
         | context [if ?b then _ else _] => destruct b
         end;
  try discriminate Hs; injection Hs as <-; fin; rewrite ?Es in *; fin.

Lemma step_frame p w w' q : step (Do p) w = Some w' -> q <> p ->
  procs w' q = procs w q /\ listening w' q = listening w q /\
  (In q (hist w') <-> In q (hist w)) /\ (In q (execd w') <-> In q (execd w)) /\ (sock w' = Bound q -> sock w = Bound q).
Proof.
  intros Hs N. step_cases Hs p w; rewrite ?upd_other by exact N; rewrite ?in_snoc;
    repeat split; try tauto; try discriminate; try congruence; intuition congruence.
Qed.

Lemma step_other l w w' r : step l w = Some w' -> label_pid l <> r -> procs w' r = procs w r.
Proof.
  intros Hs Hn. destruct l as [p|]; [|cbn in Hs; injection Hs as <-; reflexivity].
  apply (step_frame _ _ _ r Hs). intros ->. now apply Hn.
Qed.

(* the program counter of the moving process grows: by one, or by the jumps of a refusal (at the probe), of a failed
   bind, and of the deferred unlock after a failed bind *)
Lemma step_pc p w w' : step (Do p) w = Some w' ->
  pc (procs w p) < pc (procs w' p) /\ (pc (procs w' p) = S (pc (procs w p)) \/ pcProbe <= pc (procs w p)).
Proof. intros Hs. step_cases Hs p w; rewrite upd_same; fin; lia. Qed.

Lemma pc_mono_step l w w' q : step l w = Some w' -> pc (procs w q) <= pc (procs w' q).
Proof.
  intros Hs. destruct l as [p|]; [|cbn in Hs; injection Hs as <-; lia].
  destruct (Nat.eq_dec q p) as [->|N]; [apply step_pc in Hs as [Hs _]; lia | apply step_frame with (q := q) in Hs as [-> _]; [lia | exact N]].
Qed.

Lemma pass_probe l w w' r : step l w = Some w' -> pc (procs w r) <= pcProbe -> pcProbe < pc (procs w' r) ->
  l = Do r /\ pc (procs w r) = pcProbe.
Proof.
  intros Hs H1 H2. destruct l as [p|]; [|cbn in Hs; injection Hs as <-; lia].
  destruct (Nat.eq_dec p r) as [->|N]; [apply step_pc in Hs; unfold pcProbe in *; split; [reflexivity | lia]|].
  rewrite (step_other _ _ _ r Hs N) in H2. lia.
Qed.

Lemma run_inv (P : world -> Prop) : (forall l w w', P w -> step l w = Some w' -> P w') ->
  forall sched w w', P w -> run sched w = Some w' -> P w'.
Proof.
  intros HP. induction sched as [|l r IH]; simpl; intros w w' Hw H.
  - now injection H as <-.
  - destruct (step l w) as [w1|] eqn:S; [eauto | discriminate].
Qed.

(* The bookkeeping invariant, process by process: what the program counter of p says about p's traces in the shared
   state (history, executed steps, listener, socket path), and that a refused process and one whose bind failed
   have left none. *)
Definition Lp (w : world) (p : nat) : Prop :=
  let s := procs w p in
  pc s <= pcEnd /\
  (pc s <= pcOpen -> ~ In p (hist w)) /\
  (pc s <= pcSteps -> ~ In p (execd w)) /\
  (pc s <= pcBind -> listening w p = false /\ sock w <> Bound p) /\
  (refused s = true -> pc s = pcEnd /\ ~ In p (hist w) /\ ~ In p (execd w) /\ listening w p = false /\ sock w <> Bound p) /\
  (bindfail s = true -> pcCloseHist <= pc s /\ ~ In p (execd w) /\ listening w p = false /\ sock w <> Bound p /\ refused s = false).
Definition L (w : world) : Prop := forall p, Lp w p.

Lemma L_init s0 : (forall p, s0 <> Bound p) -> L (init s0).
Proof.
  intros H p. unfold Lp, init; cbn. unfold pcEnd. repeat split; try lia; auto; try discriminate; intros; try discriminate.
Qed.

Lemma Lp_frame w w' q :
  procs w' q = procs w q -> listening w' q = listening w q -> (In q (hist w') <-> In q (hist w)) ->
  (In q (execd w') <-> In q (execd w)) -> (sock w' = Bound q -> sock w = Bound q) -> Lp w q -> Lp w' q.
Proof. unfold Lp. intros -> -> -> -> Hs. tauto. Qed.

Lemma Lp_own p w w' : Lp w p -> step (Do p) w = Some w' -> Lp w' p.
Proof.
  unfold Lp. intros (H1 & H2 & H3 & H4 & H5 & H6) Hs. pose proof (step_enabled _ _ _ Hs) as Hn.
  unfold pcEnd, pcCloseHist in *.
  (* a refused process has ended; after a failed bind only the deferred CloseHist remains *)
  assert (Rf : refused (procs w p) = false) by (destruct (refused _); [destruct (H5 eq_refl); lia | reflexivity]).
  assert (Bf : bindfail (procs w p) = true -> pc (procs w p) = pcCloseHist) by (intros B; destruct (H6 B); unfold pcCloseHist; lia).
  clear H1 H5 Hn.
  step_cases Hs p w; subst rf; rewrite upd_same; fin; rewrite ?in_snoc.
  all: try (destruct bf; [discriminate (Bf eq_refl)|]).
  all: repeat match goal with H : ?a <= ?b -> _ |- _ => first [specialize (H ltac:(lia)) | clear H] end.
  all: repeat split; intros; rewrite ?Sk.
  all: try discriminate. all: try tauto. all: lia.
Qed.

Lemma L_step l w w' : L w -> step l w = Some w' -> L w'.
Proof.
  intros HL Hs q. destruct l as [p|]; [|cbn in Hs; injection Hs as <-; exact (HL q)].
  destruct (Nat.eq_dec q p) as [->|N]; [exact (Lp_own _ _ _ (HL p) Hs)|].
  destruct (step_frame _ _ _ _ Hs N) as (A & B & C & D & E). exact (Lp_frame _ _ _ A B C D E (HL q)).
Qed.

Lemma L_reachable s0 sched w : (forall p, s0 <> Bound p) -> run sched (init s0) = Some w -> L w.
Proof. intros H. apply (run_inv L L_step). now apply L_init. Qed.

Theorem refused_silent s0 sched w p :
  (forall q, s0 <> Bound q) -> run sched (init s0) = Some w -> refused (procs w p) = true ->
  pc (procs w p) = pcEnd /\ ~ In p (hist w) /\ ~ In p (execd w) /\ listening w p = false /\ sock w <> Bound p.
Proof. intros H0 HR. apply (L_reachable s0 sched w H0 HR p). Qed.

Lemma refusal_step w p w' : cur w p = Some Probe -> answering w = true -> step (Do p) w = Some w' ->
  sock w' = sock w /\ hist w' = hist w /\ execd w' = execd w /\ (forall q, listening w' q = listening w q) /\
  (forall q, q <> p -> procs w' q = procs w q) /\ refused (procs w' p) = true /\ pc (procs w' p) = pcEnd /\ lock w' = None.
Proof.
  intros Hc Ha Hs. unfold step in Hs. rewrite Hc, Ha in Hs. injection Hs as <-. cbn.
  repeat split; auto. - intros q Hq. now apply upd_other. - now rewrite upd_same. - now rewrite upd_same.
Qed.

Lemma refused_stable_step l w w' r : L w -> refused (procs w r) = true -> step l w = Some w' -> refused (procs w' r) = true.
Proof.
  intros HL Rf Hs. destruct l as [p|]; [|cbn in Hs; injection Hs as <-; exact Rf].
  destruct (Nat.eq_dec p r) as [->|N]; [|now rewrite (step_other (Do p) _ _ _ Hs N)].
  destruct (HL r) as (_ & _ & _ & _ & Hrf & _). destruct (Hrf Rf) as (Hend & _).
  apply step_enabled in Hs. lia.
Qed.

(* The protocol invariant of the repaired code (a924e5c).  Clause by clause (Ia .. If in the proofs):
     Ia  a process between its Lock and its Unlock holds the lock - so at most one is inside that section;
     Ib  the lock is held by nobody else: it is free whenever nobody is inside the section;
     Ic  a process between its Unlock and its ShutUnlink owns the socket path and listens: its endpoint answers;
     Id  nobody is past its probe and before its Unlock while another process owns the path: a prober that finds an
         owner is refused, so it never gets to the unlink that would take the owner's socket away;
     Ie  at its Bind a process finds the path absent (it has just unlinked it, under the lock): a bind never fails;
     If  hence no process is ever in the failed-bind state (the bindfail branch of `step` is not reachable). *)
Definition I (w : world) : Prop :=
  (forall p, pcProbe <= pc (procs w p) <= pcUnlock -> lock w = Some p) /\
  (forall p, lock w = Some p -> pcProbe <= pc (procs w p) <= pcUnlock) /\
  (forall p, pcUnlock <= pc (procs w p) <= pcShutUnlink -> sock w = Bound p /\ listening w p = true) /\
  (forall p q, p <> q -> pcProbe < pc (procs w p) <= pcBind -> pcUnlock <= pc (procs w q) <= pcShutUnlink -> False) /\
  (forall p, pc (procs w p) = pcBind -> sock w = Absent) /\
  (forall p, bindfail (procs w p) = false).

Lemma I_init s0 : I (init s0).
Proof.
  unfold I, init; cbn. unfold pcProbe, pcUnlock, pcShutUnlink, pcBind. repeat split; intros; try lia; try discriminate; auto.
Qed.

Lemma answering_of w q : sock w = Bound q -> listening w q = true -> answering w = true.
Proof. intros S Lq. unfold answering. now rewrite S. Qed.

(* p0 moves.  Each clause is checked for p0 itself (its new program counter is a numeral) and for every other process p
   (its record is unchanged, `upd_other`); the alternatives are listed with the actions of p0 they close. *)
Lemma I_step l w w' : I w -> step l w = Some w' -> I w'.
Proof.
  intros HI Hs. destruct l as [p0|]; [|cbn in Hs; injection Hs as <-; exact HI].
  destruct HI as (Ia & Ib & Ic & Id & Ie & If_).
  pose proof (Ia p0) as Ia0. pose proof (Ib p0) as Ib0. pose proof (Ic p0) as Ic0. pose proof (Ie p0) as Ie0. pose proof (If_ p0) as If0.
  step_cases Hs p0 w;
    try (exfalso; specialize (Ie0 eq_refl); congruence);      (* Ie: the bind of p0 does not fail *)
    try discriminate If0;                                     (* If: p0 is not in the failed-bind state *)
    unfold I; fin; rewrite ?Es in *; fin;
    (split; [|split; [|split; [|split; [|split]]]];
    [ (* Ia.  p0: Lock gives it the lock | it is not inside the section afterwards | it stays inside, the lock unchanged.
         p: the lock is unchanged | Lock by p0 needs a free lock, but p holds it | p0 releases (refusal, Unlock) only its
         own lock, and p0 and p cannot both hold it *)
      intros p Hr; destruct (Nat.eq_dec p p0) as [E|N];
      [ subst p; rewrite ?upd_same in Hr; fin; first [ reflexivity | lia | apply Ia0; lia ]
      | rewrite ?upd_other in Hr by exact N; pose proof (Ia p Hr) as X;
        first [ exact X | congruence | (assert (Y : lock w = Some p0) by (apply Ia0; lia); congruence) ] ]
    | (* Ib.  p0: it is inside the section afterwards | it has released the lock | the lock is unchanged and it was inside.
         p: the lock has been released | is unchanged | has gone to p0, not to p *)
      intros p Hl; destruct (Nat.eq_dec p p0) as [E|N];
      [ subst p; rewrite ?upd_same; fin; first [ lia | discriminate Hl | (specialize (Ib0 Hl); lia) ]
      | rewrite ?upd_other by exact N; first [ discriminate Hl | (apply Ib; exact Hl) | (injection Hl as Hl; congruence) ] ]
    | (* Ic.  p0: it does not own the path afterwards | its Bind succeeded | it owned the path before, nothing changed.
         p: path and listener of p are unchanged | p0 would unlink or bind inside its section while p owns the path: Id |
         p0 would remove the path at its shutdown while p owns it: the path cannot be the socket of both *)
      intros p Hr; destruct (Nat.eq_dec p p0) as [E|N];
      [ subst p; rewrite ?upd_same in *; fin; first [ lia | (split; reflexivity) | (apply Ic0; lia) ]
      | rewrite ?upd_other in * by exact N; pose proof (Ic p Hr) as [X1 X2];
        first [ (split; assumption)
              | (exfalso; apply (Id p0 p (fun E => N (eq_sym E))); rewrite ?Es; fin; lia)
              | (exfalso; assert (Y : sock w = Bound p0 /\ listening w p0 = true) by (apply Ic0; lia); destruct Y as [Y _]; congruence) ] ]
    | (* Id.  the new program counter of p0 is outside both ranges | neither is p0 | p0 was past its probe before |
         p0 owned the path before | p0 passes its probe while q owns the path: q's endpoint answers, p0 is refused |
         p0 leaves the section by Unlock while p is inside it: both would hold the lock *)
      intros p q Npq Hp1 Hq1;
      destruct (Nat.eq_dec p p0) as [Ep|Np]; destruct (Nat.eq_dec q p0) as [Eq|Nq]; try congruence; try subst p; try subst q;
      try rewrite upd_same in Hp1; try rewrite upd_same in Hq1; try rewrite upd_other in Hp1 by assumption; try rewrite upd_other in Hq1 by assumption; fin;
      first [ lia
            | (apply (Id p q Npq); assumption)
            | (apply (Id p0 q Npq); rewrite ?Es; fin; [lia | assumption])
            | (apply (Id p p0 Npq); rewrite ?Es; fin; [assumption | lia])
            | (destruct (Ic q Hq1) as [S1 S2]; rewrite (answering_of w q S1 S2) in An; discriminate An)
            | (assert (Y : lock w = Some p0) by (apply Ia0; lia); assert (Z : lock w = Some p) by (apply Ia; lia); congruence) ]
    | (* Ie.  p0: it is not at its Bind afterwards | it has just unlinked the path.
         p: p0 has removed the path | left it alone | p0 binds while p is at its Bind: both would hold the lock *)
      intros p Hr; destruct (Nat.eq_dec p p0) as [E|N];
      [ subst p; rewrite ?upd_same in Hr; fin; first [ lia | reflexivity ]
      | rewrite ?upd_other in Hr by exact N;
        first [ reflexivity | (apply (Ie p); exact Hr)
              | (exfalso; assert (Y : lock w = Some p0) by (apply Ia0; lia); assert (Z : lock w = Some p) by (apply Ia; lia); congruence) ] ]
    | intros p; destruct (Nat.eq_dec p p0) as [E|N];
      [ subst p; rewrite upd_same; fin; first [ reflexivity | exact If0 ]
      | rewrite upd_other by exact N; apply If_ ] ]).
Qed.

Lemma reachable_inv s0 sched w : (forall p, s0 <> Bound p) -> run sched (init s0) = Some w -> L w /\ I w.
Proof. intros H R. split; [exact (L_reachable s0 sched w H R) | exact (run_inv I I_step sched _ _ (I_init s0) R)]. Qed.

Lemma owner_spec s : owner s = true <-> pcUnlock <= pc s <= pcShutUnlink /\ bindfail s = false.
Proof. unfold owner. rewrite !andb_true_iff, !Nat.leb_le, negb_true_iff. tauto. Qed.
Lemma active_spec s : active s = true <-> pcSteps <= pc s <= pcShutUnlink /\ bindfail s = false.
Proof. unfold active. rewrite !andb_true_iff, !Nat.leb_le, negb_true_iff. tauto. Qed.
Lemma in_section_spec s : in_section s = true <-> pcProbe <= pc s <= pcUnlock.
Proof. unfold in_section. rewrite !andb_true_iff, !Nat.leb_le. tauto. Qed.

Theorem mutual_exclusion s0 sched w :
  (forall q, s0 <> Bound q) -> run sched (init s0) = Some w ->
  (forall p q, in_section (procs w p) = true -> in_section (procs w q) = true -> p = q) /\
  (forall p q, owner (procs w p) = true -> owner (procs w q) = true -> p = q) /\
  (forall p q, active (procs w p) = true -> active (procs w q) = true -> p = q) /\
  (forall p, owner (procs w p) = true -> sock w = Bound p /\ listening w p = true) /\
  (forall p q, p <> q -> In p (execd w) -> active (procs w q) = true -> pcShutUnlink < pc (procs w p)) /\
  (forall p, bindfail (procs w p) = false) /\
  (forall p, refused (procs w p) = true -> ~ In p (hist w) /\ ~ In p (execd w)).
Proof.
  intros H0 HR.
  destruct (reachable_inv s0 sched w H0 HR) as (HL & Ia & Ib & Ic & Id & Ie & If_).
  assert (OW : forall p q, owner (procs w p) = true -> owner (procs w q) = true -> p = q).
  { intros p q Op Oq. apply owner_spec in Op, Oq. destruct (Ic p (proj1 Op)) as [S1 _]. destruct (Ic q (proj1 Oq)) as [S2 _]. congruence. }
  assert (AO : forall p, active (procs w p) = true -> owner (procs w p) = true).
  { intros p A. apply active_spec in A. apply owner_spec. unfold pcSteps, pcUnlock, pcShutUnlink in *. split; [lia|tauto]. }
  split; [|split; [|split; [|split; [|split; [|split]]]]].
  - intros p q Sp Sq. apply in_section_spec in Sp, Sq. pose proof (Ia p Sp). pose proof (Ia q Sq). congruence.
  - exact OW.
  - intros p q Ap Aq. apply OW; apply AO; assumption.
  - intros p Op. apply owner_spec in Op. apply Ic. tauto.
  - intros p q N Ip Aq. destruct (le_lt_dec (pc (procs w p)) pcShutUnlink) as [Hle|Hgt]; [|exact Hgt]. exfalso.
    (* p has executed steps, so it is past pcSteps; not yet past its ShutUnlink it would own the path, like q *)
    pose proof (HL p) as (_ & _ & He & _).
    destruct (le_lt_dec (pc (procs w p)) pcSteps) as [X|X]; [exact (He X Ip)|].
    apply N. apply OW; [|apply AO; exact Aq].
    apply owner_spec. unfold pcSteps, pcUnlock, pcShutUnlink in *. split; [lia | apply If_].
  - exact If_.
  - intros p Rf. pose proof (HL p) as (_ & _ & _ & _ & Hrf & _). apply Hrf in Rf. tauto.
Qed.

Lemma owner_step q l w w' : I w -> owner (procs w q) = true -> step l w = Some w' ->
  hist w' = hist w /\ (forall r, r <> q -> (In r (execd w') <-> In r (execd w))) /\
  (forall r, r <> q -> pc (procs w r) = pcProbe -> l = Do r -> refused (procs w' r) = true).
Proof.
  intros (Ia & Ib & Ic & Id & Ie & If_) Oq Hs. apply owner_spec in Oq. destruct Oq as [Oq _].
  destruct (Ic q Oq) as [S1 S2]. pose proof (answering_of w q S1 S2) as An.
  destruct l as [p0|]; [|cbn in Hs; injection Hs as <-; split; [reflexivity|split; [tauto|intros; discriminate]]].
  destruct (Nat.eq_dec p0 q) as [E|N].
  - subst p0. fin. step_cases Hs q w; try lia;
      (split; [reflexivity|]); (split; [intros r Hr; rewrite ?in_snoc; intuition congruence|]);
      intros r Hr _ E; injection E as ->; contradiction.
  - pose proof (Id p0 q N) as Idq. pose proof (Ic p0) as Ic0. fin.
    step_cases Hs p0 w; try discriminate An;
      try (exfalso; apply Idq; lia);
      try (exfalso; assert (Y : sock w = Bound p0 /\ listening w p0 = true) by (apply Ic0; lia); destruct Y; congruence);
      (split; [reflexivity|]); (split; [intros; reflexivity|]);
      intros r Hr Hpc E; injection E as <-; rewrite ?upd_same; fin; try reflexivity; rewrite ?Es in Hpc; fin; lia.
Qed.

(* the conclusion of C16_after_bind *)
Definition served_alone (q : nat) (w w1 : world) : Prop :=
  (owner (procs w1 q) = true /\ sock w1 = Bound q /\ listening w1 q = true) /\
  hist w1 = hist w /\ (forall r, r <> q -> (In r (execd w1) <-> In r (execd w))) /\
  (forall r, r <> q -> pc (procs w r) <= pcProbe -> pcProbe < pc (procs w1 r) -> refused (procs w1 r) = true).

Theorem after_bind q sched w w' : L w -> I w -> owner (procs w q) = true -> run sched w = Some w' ->
  pc (procs w' q) <= pcShutUnlink -> served_alone q w w'.
Proof.
  intros HL HI Oq HR.
  apply (run_inv (fun w1 => L w1 /\ I w1 /\ (pc (procs w1 q) <= pcShutUnlink -> served_alone q w w1))) with (w' := w') in HR;
    [tauto | |].
  - intros l w1 w2 (HL1 & HI1 & H1) S. pose proof (L_step _ _ _ HL1 S) as HL2. pose proof (I_step _ _ _ HI1 S) as HI2.
    split; [exact HL2|]. split; [exact HI2|]. intros Hle.
    pose proof (pc_mono_step _ _ _ q S) as Hm. destruct (H1 ltac:(lia)) as ((Oq1 & _) & Hh & He & Hr).
    destruct (owner_step q l w1 w2 HI1 Oq1 S) as (Hh1 & He1 & Hr1).
    destruct HI2 as (_ & _ & Ic & _ & _ & If2).
    assert (Oq2 : pcUnlock <= pc (procs w2 q) <= pcShutUnlink) by (apply owner_spec in Oq1; lia).
    split; [|split; [congruence | split]].
    + split; [apply owner_spec; split; [exact Oq2 | apply If2] | now apply Ic].
    + intros r Hr'. rewrite <- (He r Hr'). now apply He1.
    + intros r Hr' Hpc Hpc2. destruct (le_lt_dec (pc (procs w1 r)) pcProbe) as [Hle1|Hgt1].
      * destruct (pass_probe l w1 w2 r S Hle1 Hpc2) as [-> E2]. now apply Hr1.
      * apply (refused_stable_step l w1 w2 r HL1); [now apply Hr | exact S].
  - split; [exact HL|]. split; [exact HI|]. intros _. split.
    + split; [exact Oq|]. destruct HI as (_ & _ & Ic & _). apply owner_spec in Oq. apply Ic. tauto.
    + split; [reflexivity|]. split; [tauto|]. intros r _ H1 H2. lia.
Qed.

(* the premise is what a solo start reaches after its bind, from a clean or stale socket path *)
Example owner_reached :
  (exists w, run (does 0 9) (init Absent) = Some w /\ owner (procs w 0) = true) /\
  (exists w, run (does 0 9) (init Stale) = Some w /\ owner (procs w 0) = true).
Proof. split; (eexists; split; [vm_compute; reflexivity|reflexivity]). Qed.

(* The schedules that refuted mutual exclusion before the repair (F16a), replayed on the repaired protocol. *)
Definition mem_all (w : world) (n : nat) := outcomes n w.

(* 1. both probe before either binds: the second Lock is not enabled while the first is inside its section ... *)
Example race_not_executable : run (does 0 4 ++ does 1 3) (init Absent) = None.
Proof. vm_compute. reflexivity. Qed.
(* ... the second start waits, probes after the first's bind and is refused; the first is untouched *)
Example race_repaired :
  exists w, run (does 0 4 ++ does 1 2 ++ does 0 7 ++ does 1 2 ++ does 0 5) (init Absent) = Some w /\
            outcomes 2 w = [(1, true, true); (2, false, false)] /\ hist w = [0] /\ execd w = [0].
Proof. eexists. split; [vm_compute; reflexivity|]. vm_compute. auto. Qed.
(* 2. a third start while the first serves is refused too *)
Example third_start_repaired :
  exists w, run (does 0 11 ++ does 1 4 ++ does 2 4) (init Absent) = Some w /\
            outcomes 3 w = [(0, true, true); (2, false, false); (2, false, false)] /\ answering w = true.
Proof. eexists. split; [vm_compute; reflexivity|]. vm_compute. auto. Qed.
(* 3. nobody can bind between another's unlink and bind: the would-be loser never records a run *)
Example bind_first_not_executable : run (does 0 8 ++ does 1 3) (init Absent) = None.
Proof. vm_compute. reflexivity. Qed.
(* 4. no late unlink: a run started after the first's shutdown unlink keeps its endpoint, a third start is refused *)
Example late_unlink_repaired :
  exists w, run (does 0 14 ++ does 1 11 ++ does 0 2 ++ does 2 4) (init Absent) = Some w /\
            outcomes 3 w = [(1, true, true); (0, true, true); (2, false, false)] /\ sock w = Bound 1 /\ answering w = true.
Proof. eexists. split; [vm_compute; reflexivity|]. vm_compute. auto. Qed.

(* F16b: a save of the DAG definition between one start's lock and its bind.
   Before F16b (lock on the definition file): the save hands the second start a fresh unlocked inode - both execute *)
Example save_race_refuted_before_F16b :
  exists w, run_a924 (does 0 4 ++ [Save] ++ does 1 11 ++ does 0 7) (init Absent) = Some w /\
            active (procs w 0) = true /\ active (procs w 1) = true /\ mem 0 (execd w) = true /\ mem 1 (execd w) = true /\
            sock w = Bound 0 /\ listening w 1 = true.
Proof. eexists. split; [vm_compute; reflexivity|]. vm_compute. repeat split. Qed.
(* since F16b (lock on a file of its own): the same schedule is not an execution - the second Lock is not enabled ... *)
Example save_race_not_executable : run (does 0 4 ++ [Save] ++ does 1 3) (init Absent) = None.
Proof. vm_compute. reflexivity. Qed.
(* ... the second start waits for the first's bind and is refused *)
Example save_race_repaired :
  exists w, run (does 0 4 ++ [Save] ++ does 1 2 ++ does 0 7 ++ does 1 2 ++ does 0 5) (init Absent) = Some w /\
            outcomes 2 w = [(1, true, true); (2, false, false)] /\ hist w = [0] /\ execd w = [0].
Proof. eexists. split; [vm_compute; reflexivity|]. vm_compute. auto. Qed.
